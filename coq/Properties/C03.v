(* Properties/C03.v — "Data buffers match the transfer the CDB announces".
   For every command class and ALL arguments: the data-in buffer is a zero buffer exactly as long as
   the standard's transfer (allocation length; transfer length x block size; 0), the data-out buffer is
   the caller's write data / the composed parameter list / empty; both are always byte buffers.
   ATA PASS-THROUGH: the SAT rules hold for all flag values (Proofs/Ata.v); the theorem here quotes the listed combinations. *)
From Coq Require Import String.
From PS Require Import Base.Bytes Base.Result Model.Converter Model.Ctor Model.InitCdb.
From PS Require Import Proofs.CtorSound Proofs.CtorBuffers Proofs.Ata Model.Xfer Proofs.XferProps.
From PS Require Import Spec.CdbFormats Gen.Ctors.
Open Scope string_scope.
Open Scope N_scope.

(* the two ATA classes are told apart by their tables: 14 entries is ATA PASS-THROUGH(12), operation code A1h = 161; the other
   (15 entries) is ATA PASS-THROUGH(16), 85h = 133 *)
Definition class_xfer_ok (kc : string * ctor) : bool :=
  match lookup (fst kc) xfer_specs with
  | Some (xo, IZeros li) => xfer_matches (snd kc) (xo, IZeros li)
  | Some (OAta, IAta) => ata_ok (snd kc) (if Nat.eqb (length (c_bits (snd kc))) 14 then 161 else 133)
  | _ => false
  end.

Theorem C03_all_classes_match : forallb class_xfer_ok all_ctors = true /\ length all_ctors = 42%nat.
Proof.
  split; [|reflexivity]. apply forallb_forall. intros kc Hin. unfold all_ctors in Hin. cbn [In] in Hin.
  (* for the two ATA classes class_xfer_ok is ata_ok over the 2304 listed combinations: Proofs/Ata.v proves it from the theorem for
     all flag values; evaluating it here would run the constructors 2304 times each *)
  repeat destruct Hin as [<-|Hin]; try contradiction;
    lazymatch goal with
    | |- class_xfer_ok (_, C_scsi_cdb_atapassthrough12__ATAPassThrough12) = true => exact ata12_sweep
    | |- class_xfer_ok (_, C_scsi_cdb_atapassthrough16__ATAPassThrough16) = true => exact ata16_sweep
    | |- _ => vm_compute; reflexivity
    end.
Qed.

(* data-in and data-out of every non-ATA class, for all arguments *)
Theorem C03_buffers : forall key c xo li,
  In (key, c) all_ctors -> lookup key xfer_specs = Some (xo, IZeros li) ->
  forall ext op G pos kw G' cm n,
    init_cdb (op_value op) = Ok n ->
    run_ctor ext op c init_cdb G pos kw = (G', Ok cm) ->
    exists ρ0 ni,
      bind_args c pos kw = Ok ρ0 /\
      datain cm = CZeros ni /\ xlen_denotes ρ0 li ni /\
      match xo with
      | OZeros lo => exists no, dataout cm = CZeros no /\ xlen_denotes ρ0 lo no
      | OCaller d => lookup d ρ0 = Some (dataout cm)
      | OCallerUnless flag d =>
          exists fv, lookup flag ρ0 = Some fv /\
                     if truthy fv then dataout cm = CBytes [] else lookup d ρ0 = Some (dataout cm)
      | OParamList => True
      | OAta => True
      end.
Proof.
  intros key c xo li Hin Hl ext op G pos kw G' cm n Hn Hrun.
  destruct C03_all_classes_match as [H _]. rewrite forallb_forall in H. specialize (H _ Hin).
  unfold class_xfer_ok in H. cbn [fst snd] in H. rewrite Hl in H.
  assert (H' : xfer_matches c (xo, IZeros li) = true) by (destruct xo; exact H).
  clear H. rename H' into H.
  exact (xfer_sound ext op init_cdb c (xo, IZeros li) li H eq_refl G pos kw G' cm n Hn Hrun).
Qed.

(* the parameter list composed by the library is what is sent, and PARAMETER LIST LENGTH is computed from it:
   the expression that fills the CDB field is len() of the very variable stored as data-out
   (decided on the regenerated IR by xfer_matches), and len() of a byte buffer is its length *)
Theorem C03_param_list_length : forall ext op ρ w v L,
  eval ext op ρ (ELen (EVar w)) = Ok (CInt L) -> lookup w ρ = Some v ->
  match v with CBytes b => L = N.of_nat (length b) | CZeros n => L = n | _ => False end.
Proof.
  intros ext op ρ w v L He Hl. rewrite eval_eq, (eval_eq _ _ ρ (EVar w)) in He. unfold get in He. rewrite Hl in He.
  destruct v; try discriminate; now inversion He.
Qed.

(* ATA PASS-THROUGH(12/16): all 2304 combinations of T_LENGTH, BYT_BLOK, T_TYPE, T_DIR, block size in {0,512,4096},
   extra_tl in {None,7}, data absent/present, COUNT in {0,5,256}, FEATURES in {0,3} follow the SAT rules (other arguments fixed) *)
Theorem C03_ata_sweep :
  forall f, In f all_flags ->
    ata_case_ok C_scsi_cdb_atapassthrough12__ATAPassThrough12 161 f = true /\
    ata_case_ok C_scsi_cdb_atapassthrough16__ATAPassThrough16 133 f = true.
Proof.
  intros f _. split; [apply ata12_all|apply ata16_all].
Qed.

(* iSCSI: the REGENERATED transfer set-up of ISCSIDevice.execute hands the binding, for ALL buffer lengths, direction
   WRITE with len(data-out) when there is data-out, else READ with len(data-in) when there is data-in, else no transfer;
   Task is called with (cdb, dir, xferlen) and command with (lun, task, dataout, datain) — any other shape makes
   iscsi_xfer None.  SG_IO: sgio.execute is called with (file, cdb, dataout, datain). *)
Theorem C03_iscsi_direction : forall lo li,
  iscsi_xfer lo li = Some (if negb (lo =? 0) then ("SCSI_XFER_WRITE", lo)
                           else if negb (li =? 0) then ("SCSI_XFER_READ", li) else ("SCSI_XFER_NONE", 0)).
Proof. exact iscsi_xfer_spec. Qed.

Theorem C03_sgio_arguments : sgio_args_ok = true.
Proof. exact sgio_args_checked. Qed.

(* RE-ISSUE. Neither transport's execute() stores to cmd.cdb / cmd.dataout / cmd.datain other than filling bytes in
   place (every store to the command object is REGENERATED into exec_cmd_stores): the buffers a command object is
   handed over with on a second execute() are the ones its constructor sized, whatever the device transferred before. *)
Theorem C03_execute_keeps_buffers : buffers_kept = true.
Proof. vm_compute. reflexivity. Qed.
