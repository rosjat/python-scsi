(* Properties/C11.v — "Decoding device data always terminates, whatever the bytes".
   Every loop of every response / sense decoder is REGENERATED as a skeleton (loop variable, bytes consumed per
   iteration); a loop whose every iteration consumes at least one byte makes at most len(buffer) iterations,
   for all byte strings and whatever else the body computes (no bound). `for` loops range over a slice of the
   buffer, a caller-given range or a dictionary. *)
From Coq Require Import String.
From PS Require Import Base.Bytes Base.Result Model.Loops Gen.Loops Proofs.Termination.
Open Scope string_scope.

Theorem C11_nothing_skipped : unknown_loops = [] /\ (8 <= length loops)%nat.
Proof. split; [|apply Nat.leb_le]; vm_compute; reflexivity. Qed.

(* every decoder loop advances by at least one byte per iteration *)
Theorem C11_all_strides_positive : forall name v s, In (name, v, s) loops -> stride_ok s = true.
Proof.
  assert (H : forallb (fun l : string * string * stride => stride_ok (snd l)) loops = true) by (vm_compute; reflexivity).
  intros name v s Hin. rewrite forallb_forall in H. exact (H _ Hin).
Qed.

(* hence each of them terminates within len(buffer) iterations on every buffer: linear work, no unbounded growth *)
Theorem C11_terminates : forall name v s, In (name, v, s) loops ->
  forall (A : Type) (e : bytes -> A -> N) (upd : bytes -> A -> A) (d : bytes) (a : A),
  exists r n, loop A (skeleton_body s e upd) (length d) d a = Some (r, n) /\ (n <= length d)%nat.
Proof. intros name v s Hin A e upd d a. apply skeleton_terminates. eapply C11_all_strides_positive; eassumption. Qed.

(* the only other loops iterate over a slice of the buffer, a caller-supplied range, or a dictionary *)
Theorem C11_for_loops_bounded : forall name kind, In (name, kind) for_loops ->
  kind = "buffer" \/ kind = "range" \/ kind = "dict".
Proof.
  assert (H : forallb (fun l : string * string => String.eqb (snd l) "buffer" || String.eqb (snd l) "range" || String.eqb (snd l) "dict") for_loops = true)
    by (vm_compute; reflexivity).
  intros name kind Hin. rewrite forallb_forall in H. specialize (H _ Hin). cbn [snd] in H.
  apply orb_prop in H as [H|H]; [apply orb_prop in H as [H|H]|]; apply String.eqb_eq in H; auto.
Qed.

(* what a zero stride means: the skeleton loop with stride 0 never finishes on a non-empty buffer *)
Example C11_zero_stride_diverges : loop unit (skeleton_body (SData "x") (fun _ _ => 0%N) (fun _ a => a)) 1000 [1%N] tt = None.
Proof. vm_compute. reflexivity. Qed.

(* ---------------------------------------------------------------------------------------------------------------------
   The same for the REGENERATED decoder bodies themselves (Gen/PyFuncs.v under Model/Py.v), on EVERY byte string: the decoder returns a
   value — it neither raises nor runs out of fuel — with fuel len(data) + 3 (2 len(data) + 4 for the two decoders with nested loops;
   one unit per loop re-entry / call), whatever the bytes, and the result is spelled out (the successive 16- / 8-byte pieces of the announced part). *)
From Coq Require Import ZArith.
From PS Require Import Model.Py Proofs.PyLemmas Proofs.PyParsers Proofs.PyTotal Proofs.PyTotal2 Proofs.PyParsersRES Proofs.PyTotal3 Gen.Tables Gen.PyFuncs.

Theorem C11_py_getlbastatus_every_input : forall (data : bytes) f, (length data + 3 <= f)%nat ->
  let announced := py_slice data (Some 8%Z) (Some (Z.of_N (ba_to_int (py_slice data None (Some 4%Z))) + 4)%Z) in
  call_fun all_tables py_program f GLS [PBytes data] = Ok (PDict [("lbas", PList (map gls_desc (chunks (length announced) 16 announced)))]).
Proof. exact getlbastatus_total. Qed.

Theorem C11_py_read_keys_every_input : forall (data : bytes) f, (length data + 3 <= f)%nat ->
  let announced := py_slice data (Some 8%Z) (Some (Z.of_N (ba_to_int (py_slice data (Some 4%Z) (Some 8%Z))) + 8)%Z) in
  call_fun all_tables py_program f PRK [PBytes data] =
  Ok (PDict [("pr_generation", PInt (Z.of_N (ba_to_int (py_slice data None (Some 4%Z)))));
             ("reservation_keys", PList (map prk_key (chunks (length announced) 8 announced)))]).
Proof. exact read_keys_total. Qed.

Theorem C11_py_reportluns_every_input : forall (data : bytes) f, (length data + 3 <= f)%nat ->
  let announced := py_slice data (Some 8%Z) (Some (Z.of_N (ba_to_int (py_slice data None (Some 4%Z))) + 8)%Z) in
  call_fun all_tables py_program f RL [PBytes data] = Ok (PDict [("luns", PList (rl_entries 0 (chunks (length announced) 8 announced)))]).
Proof. exact reportluns_total. Qed.

(* READ CAPACITY(10) / (16): no loop at all — one table applied to whatever bytes arrived (short buffers read as zeros) *)
Theorem C11_py_readcapacity_every_input : forall (data : bytes) f, (1 <= f)%nat ->
  call_fun all_tables py_program f "scsi_cdb_readcapacity10.ReadCapacity10.unmarshall_datain" [PBytes data] = Ok (PDict (dict_of_decoded (decode_total data T_rc10))) /\
  call_fun all_tables py_program f "scsi_cdb_readcapacity16.ReadCapacity16.unmarshall_datain" [PBytes data] = Ok (PDict (dict_of_decoded (decode_total data T_rc16))).
Proof. intros data f Hf. split; [now apply readcapacity10_total|now apply readcapacity16_total]. Qed.

(* descriptors that carry their own length: the stride of the loop is read from the buffer.  REPORT PRIORITY: whatever ADDITIONAL LENGTH
   says (zero, or past the end), each iteration consumes at least the 8 fixed bytes; the result is spelled out from the successive
   remainders of the announced part *)
Theorem C11_py_reportpriority_every_input : forall (data : bytes) f, (length data + 3 <= f)%nat ->
  let announced := py_slice data (Some 4%Z) (Some (Z.of_N (ba_to_int (py_slice data None (Some 4%Z))) + 4)%Z) in
  call_fun all_tables py_program f RPRI [PBytes data] =
  Ok (PDict [("priority_descriptors", PList (map rp_desc (rp_suffixes (length announced) announced)))]).
Proof. exact reportpriority_total. Qed.

(* REPORT TARGET PORT GROUPS: two nested loops, the inner one bounded by a count read from the buffer AND by the bytes that remain; on
   every byte string the decoder returns, within 2 len + 4 units of fuel, the header fields and one entry per group remainder *)
Theorem C11_py_rtpg_every_input : forall (data : bytes) f, (2 * length data + 4 <= f)%nat ->
  let announced := py_slice data (Some 4%Z) (Some (Z.of_N (ba_to_int (py_slice data None (Some 4%Z))) + 4)%Z) in
  let body := snd (rtpg_header announced) in
  call_fun all_tables py_program f RTPG [PBytes data] =
  Ok (PDict (fst (rtpg_header announced) ++ [("target_port_group_descriptors", PList (map tg_desc (tg_suffixes (length body) body)))])%list).
Proof. exact rtpg_total. Qed.

(* the number of entries is bounded by the buffer: no amplification *)
Theorem C11_py_rtpg_linear : forall (body : bytes),
  (length (tg_suffixes (length body) body) <= length body)%nat /\
  forall R, (length (tg_ports R) <= length R)%nat.
Proof.
  intros body. split; [apply tg_suffixes_length|]. intros R. unfold tg_ports.
  pose proof (port_suffixes_length (Z.to_nat (tg_count R)) (skipn 8 R)) as H. rewrite skipn_length in H.
  eapply Nat.le_trans; [exact H|]. apply Nat.le_sub_l.
Qed.

(* READ ELEMENT STATUS — the most intricate decoder: a loop over element status pages (stride 8 + BYTE COUNT OF DESCRIPTOR DATA AVAILABLE, read
   from the page), inside it a loop over element descriptors (stride ELEMENT DESCRIPTOR LENGTH, read from the page; the loop stops when that
   is zero), five conditional parts per descriptor.  On EVERY byte string the regenerated body returns a value — it neither raises nor runs
   out of fuel — within 2 len(data) + 4 units of fuel.  A corollary of the lemma that runs the body on every byte string and spells the
   result out (Proofs/PyParsersRES2.v: read_element_status_run; both loops by the rule for loops that consume a buffer, PyLemmas.consume) *)
Theorem C11_py_readelementstatus_every_input : forall (data : bytes) f, (2 * length data + 4 <= f)%nat ->
  exists v, call_fun all_tables py_program f RES [PBytes data] = Ok v.
Proof. exact readelementstatus_total. Qed.

(* in particular: never the exception of a loop that does not end, for any bytes *)
Theorem C11_py_no_divergence : forall (data : bytes),
  call_fun all_tables py_program (length data + 3) GLS [PBytes data] <> Raise Diverges /\
  call_fun all_tables py_program (length data + 3) PRK [PBytes data] <> Raise Diverges.
Proof.
  intros data. split.
  - rewrite (getlbastatus_total data (length data + 3) (le_n _)). discriminate.
  - rewrite (read_keys_total data (length data + 3) (le_n _)). discriminate.
Qed.

(* all the loop-carrying decoders treated above, in one statement: on EVERY byte string, with fuel 2 len(data) + 4 (one unit per loop
   iteration or call), each returns a value — none raises, none runs out of fuel *)
Theorem C11_py_loop_decoders_return_on_every_input : forall (data : bytes),
  let f := (2 * length data + 4)%nat in
  (exists v, call_fun all_tables py_program f GLS [PBytes data] = Ok v) /\
  (exists v, call_fun all_tables py_program f PRK [PBytes data] = Ok v) /\
  (exists v, call_fun all_tables py_program f RL [PBytes data] = Ok v) /\
  (exists v, call_fun all_tables py_program f RPRI [PBytes data] = Ok v) /\
  (exists v, call_fun all_tables py_program f RTPG [PBytes data] = Ok v) /\
  (exists v, call_fun all_tables py_program f RES [PBytes data] = Ok v).
Proof.
  intros data f. unfold f.
  assert (H3 : (length data + 3 <= 2 * length data + 4)%nat) by (clear; generalize (length data); intros n; Lia.lia).
  repeat split.
  - eexists. exact (getlbastatus_total data _ H3).
  - eexists. exact (read_keys_total data _ H3).
  - eexists. exact (reportluns_total data _ H3).
  - eexists. exact (reportpriority_total data _ H3).
  - eexists. exact (rtpg_total data _ (le_n _)).
  - exact (readelementstatus_total data _ (le_n _)).
Qed.
