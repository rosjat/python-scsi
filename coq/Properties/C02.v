(* Properties/C02.v — "CDB decoding is the exact inverse of CDB encoding", for every command class,
   all in-range assignments to all fields simultaneously, and all canonical CDB byte strings.
   marshall_cdb / unmarshall_cdb are classmethods over the class's own table (isolation from other commands is C09). *)
From Coq Require Import String.
From PS Require Import Base.Bytes Base.Result Model.Converter Model.Ctor Model.InitCdb.
From PS Require Import Proofs.Codec Proofs.Layout Proofs.CtorSound Proofs.CdbSpec.
From PS Require Import Spec.CdbFormats Gen.Ctors Properties.C01.
From PS Require Gen.Misc.
Open Scope string_scope.

(* every class's own mask table is a well-formed layout of a CDB of the standard's length
   (distinct names, contiguous non-zero masks inside the CDB, pairwise disjoint), and the fields the
   constructor fills have exactly the standard's widths (part of ctor_matches) *)
Theorem C02_tables_well_formed : forall key c sp,
  In (key, c) all_ctors -> lookup key cdb_specs = Some sp -> wf_layout (sp_len sp) (c_bits c) = true.
Proof.
  intros key c sp Hin Hsp. now apply (ctor_matches_wf c sp), (class_matches key).
Qed.

(* decoding the CDB a constructor built returns exactly the values it was built from
   (and zero for the table's fields it did not supply) *)
Theorem C02_decode_inverts_encode : forall key c sp,
  In (key, c) all_ctors -> lookup key cdb_specs = Some sp ->
  forall ext op G pos kw G' cm,
    init_cdb (op_value op) = Ok (sp_len sp) ->
    run_ctor ext op c init_cdb G pos kw = (G', Ok cm) ->
    exists d r, cdb cm = Some r /\
      (all_ints d = true -> valid_dict (sp_len sp) (c_bits c) (ints d) = true ->
         encode_dict (ints d) (c_bits c) (zeros (sp_len sp)) = Ok r /\
         forall k f, In (k, f) (c_bits c) ->
           (forall v, In (k, v) (ints d) -> decode1 r f = Ok v) /\
           (~ In k (map fst (ints d)) -> decode1 r f = decode1 (zeros (sp_len sp)) f)).
Proof.
  intros key c sp Hin Hsp ext op G pos kw G' cm Hlen Hrun.
  destruct (C01_wire_format key c sp Hin Hsp ext op G pos kw G' cm Hlen Hrun) as (ρ0 & d & r & _ & Hcdb & _ & Hrest).
  exists d, r. split; [assumption|]. intros H H0. destruct (Hrest H H0) as (_ & _ & E & _). split; [exact E|].
  intros k f H1.
  destruct (decode_encode_zeros (sp_len sp) (c_bits c) (ints d) k f (C02_tables_well_formed key c sp Hin Hsp) H0 H1)
    as (r2 & E2 & _ & _ & Hdec).
  rewrite E in E2. now injection E2 as <-.
Qed.

(* re-encoding a decoded CDB reproduces the original bytes, for every CDB of the right length whose
   undefined bits are zero (K.marshall_cdb takes the length from the operation code it finds in the dictionary) *)
Theorem C02_encode_inverts_decode : forall key c sp,
  In (key, c) all_ctors -> lookup key cdb_specs = Some sp ->
  forall b, length b = sp_len sp -> bytes_ok b ->
    (forall j, (forall k f g, In (k, f) (c_bits c) -> geom_of (sp_len sp) f = Some g -> in_field g j = false) ->
               N.testbit (ba_to_int b) j = false) ->
    exists d, unmarshall_cdb c b = Ok d /\ encode_dict d (c_bits c) (zeros (sp_len sp)) = Ok b /\
      (forall v, lookup "opcode" d = Some (VI v) -> init_cdb v = Ok (sp_len sp) -> marshall_cdb init_cdb c d = Ok b).
Proof.
  intros key c sp Hin Hsp b Hl Hb Hz. unfold unmarshall_cdb.
  destruct (encode_decode (sp_len sp) (c_bits c) b (C02_tables_well_formed key c sp Hin Hsp) Hl Hb Hz) as (d & D & E).
  exists d. split; [assumption|]. split; [assumption|].
  intros v Hv Hi. unfold marshall_cdb. now rewrite Hv, Hi.
Qed.

(* changing one field's value changes only that field's decoded value *)
Theorem C02_field_independence : forall key c sp,
  In (key, c) all_ctors -> lookup key cdb_specs = Some sp ->
  forall d d' k k2 f2,
    valid_dict (sp_len sp) (c_bits c) d = true -> valid_dict (sp_len sp) (c_bits c) d' = true ->
    map fst d = map fst d' ->
    (forall k1 v, k1 <> k -> (In (k1, v) d <-> In (k1, v) d')) ->
    In (k2, f2) (c_bits c) -> k2 <> k ->
    exists r1 r2, encode_dict d (c_bits c) (zeros (sp_len sp)) = Ok r1 /\
                  encode_dict d' (c_bits c) (zeros (sp_len sp)) = Ok r2 /\ decode1 r1 f2 = decode1 r2 f2.
Proof.
  intros key c sp Hin Hsp d d' k k2 f2 Hv Hv' Hk Hag Hin2 Hne.
  eapply field_independence; try eassumption.
  - eapply C02_tables_well_formed; eassumption.
  - apply zeros_length.
  - apply bytes_ok_zeros.
Qed.

(* the base class all commands share is exactly the modelled text and carries no state of its own (see C01) *)
Theorem C02_command_base_is_the_modelled_text : Gen.Misc.command_base_unknown = [].
Proof. exact C01_command_base_is_the_modelled_text. Qed.
