(* Properties/C04.v — "Well-formed device responses are decoded to the values the device sent".
   Spec/RespFormats.v states 47 response / parameter-data formats in the standards' notation (byte, msb, width),
   written by hand from SPC-4 / SBC-3 / SMC-3 / MMC-6.  The library's tables and the skeletons of its decoders
   (which tables, page codes, list start, length bytes, stride) are REGENERATED from /repo on every run. *)
From Coq Require Import String.
From PS Require Import Base.Bytes Base.Result Model.Converter Model.Parser Model.ParserInst Model.VarList.
From PS Require Import Proofs.ParserChecks Proofs.VarListProps Spec.RespFormats Gen.Tables Gen.Parsers.
From Coq Require Import ZArith.
From PS Require Import Model.Py Proofs.PyLemmas Proofs.PyParsers Proofs.PyTotal Proofs.PyTotal2 Proofs.PyParsersRES Proofs.PyParsersRES2 Gen.PyFuncs.
Open Scope string_scope.
Open Scope N_scope.

Theorem C04_nothing_skipped : unknown_parsers = [] /\ (30 <= length resp_formats)%nat.
Proof. split; [|apply Nat.leb_le]; vm_compute; reflexivity. Qed.

Theorem C04_side_conditions : formats_ok = true /\ structure_ok = true /\ lists_ok = true /\ var_lists_ok = true.
Proof. vm_compute. repeat split. Qed.

(* FIELDS. For every format and EVERY buffer: decoding with the library's tables cannot fail and reports, under each
   of the library's names, exactly what a reader of the standard finds at that field's byte / bit position. *)
Theorem C04_fields_at_standard_positions :
  forall name names n flds, In (name, (names, n, flds)) resp_formats ->
  exists L, layout_of names = Some L /\
    forall data, exists d, decode_bits data L = Ok d /\
      forall k b m w, In (k, b, m, w) flds ->
        lookup k d = Some (VI (std_read data b m w)) \/ lookup k d = Some (VB (std_read_bytes data b w)).
Proof. apply formats_sound. exact (proj1 C04_side_conditions). Qed.

(* LENGTHS. For REPORT LUNS, GET LBA STATUS and PR IN READ KEYS, a response made of the header, `count` descriptors
   and any trailing bytes, whose length field has the value the standard prescribes, is split into exactly those
   descriptors: each one whole, in order, nothing beyond the reported length — for every count and every content. *)
Theorem C04_descriptor_lists_exact :
  forall fn s a b bias k, In (fn, (s, (a, b), bias, k)) list_formats ->
  forall (hdr : bytes) (descs : list bytes) (trail : bytes),
    length hdr = s -> Forall (fun d => length d = k) descs ->
    (N.to_nat (ba_to_int (slice hdr a b)) + bias = s + k * length descs)%nat ->
    parse_list_named fn (hdr ++ concat descs ++ trail)%list = Some descs.
Proof. apply lists_sound. exact (proj1 (proj2 (proj2 C04_side_conditions))). Qed.

(* SELF-DESCRIBING DESCRIPTORS. The designation descriptors of the device identification page, the READ FULL STATUS
   descriptors, the REPORT PRIORITY descriptors and the element status pages carry their own length; the decoders
   (loop skeletons REGENERATED) advance by the standard's fixed part plus that field.  For every number of descriptors and
   every content: if each descriptor's length field is honest, the walk returns exactly those descriptors, whole, in order. *)
Theorem C04_self_describing_lists_exact :
  forall fn f a b, In (fn, (f, a, b)) var_list_formats ->
  forall descs : list bytes,
    Forall (desc_ok (mkVP f a b)) descs ->
    walk_named fn (concat descs) = Some descs.
Proof.
  intros fn f a b Hin descs Hd.
  destruct (var_lists_sound (proj2 (proj2 (proj2 C04_side_conditions))) fn f a b Hin) as ([[n v] p] & Hf & H1 & H2 & H3).
  unfold walk_named. rewrite Hf. cbn [snd] in *. destruct p as [f' a' b']. cbn [vp_fixed vp_a vp_b] in *. subst f' a' b'.
  apply vchunks_exact; [assumption|].
  clear -Hd. induction Hd as [|d ds (_ & Hp & _) _ IH]; [cbn; lia|]. cbn [concat length]. rewrite app_length. lia.
Qed.

(* VPD pages are cut at PAGE LENGTH + 4 before decoding: fields inside the page are unaffected *)
Theorem C04_vpd_cut_preserves_fields : forall data b m w,
  (N.to_nat b + span m w <= 4 + N.to_nat (ba_to_int (slice data 2 4)))%nat ->
  std_read (vpd_truncate data) b m w = std_read data b m w.
Proof. intros. apply std_read_firstn. assumption. Qed.

(* non-vacuity: a READ CAPACITY(16) response and a two-LUN REPORT LUNS response *)
Example C04_example_readcapacity16 :
  parse_whole_named "scsi_cdb_readcapacity16.ReadCapacity16.unmarshall_datain"
    ([0; 0; 0; 2; 0; 0; 0; 99] ++ [0; 0; 2; 0] ++ [3; 0x21; 0x80; 5] ++ zeros 16)%list =
  Ok [("returned_lba", VI (2 ^ 33 + 99)); ("block_length", VI 512); ("p_type", VI 1); ("prot_en", VI 1);
      ("p_i_exponent", VI 2); ("lbppbe", VI 1); ("lbpme", VI 1); ("lbprz", VI 0); ("lowest_aligned_lba", VI 5)].
Proof. vm_compute. reflexivity. Qed.

Example C04_example_report_luns :
  parse_list_named "scsi_cdb_report_luns.ReportLuns.unmarshall_datain"
    ([0; 0; 0; 16; 0; 0; 0; 0] ++ [0; 1; 0; 0; 0; 0; 0; 0] ++ [0; 2; 0; 0; 0; 0; 0; 9] ++ [7; 7; 7])%list =
  Some [[0; 1; 0; 0; 0; 0; 0; 0]; [0; 2; 0; 0; 0; 0; 0; 9]].
Proof. vm_compute. reflexivity. Qed.

(* ------------------------------------------------------------------------------------------------------------------
   WHOLE DECODER BODIES.  The bodies of the decoders are REGENERATED statement by statement (Gen/PyFuncs.v) as programs
   of the small Python of Model/Py.v; the theorems below run those very programs (call_fun), for every descriptor
   count, every content and any trailing bytes, with no bound. *)

(* GET LBA STATUS: 8-byte header + n descriptors of 16 bytes + anything, PARAMETER DATA LENGTH = 4 + 16 n *)
Theorem C04_py_getlbastatus_exact : forall (hdr : bytes) (descs : list bytes) (trail : bytes) f,
  length hdr = 8%nat -> Forall (fun d => length d = 16%nat) descs ->
  (Z.of_N (ba_to_int (firstn 4 hdr)) + 4 = Z.of_nat (8 + length (concat descs)))%Z ->
  (length descs + 2 <= f)%nat ->
  call_fun all_tables py_program f GLS [PBytes (hdr ++ concat descs ++ trail)%list] =
  Ok (PDict [("lbas", PList (map gls_desc descs))]).
Proof. exact getlbastatus_exact. Qed.

(* PERSISTENT RESERVE IN / READ KEYS: PRGENERATION, ADDITIONAL LENGTH = 8 n, n keys of 8 bytes, anything *)
Theorem C04_py_read_keys_exact : forall (hdr : bytes) (descs : list bytes) (trail : bytes) f,
  length hdr = 8%nat -> Forall (fun d => length d = 8%nat) descs ->
  Z.of_N (ba_to_int (skipn 4 hdr)) = Z.of_nat (length (concat descs)) ->
  (length descs + 2 <= f)%nat ->
  call_fun all_tables py_program f PRK [PBytes (hdr ++ concat descs ++ trail)%list] =
  Ok (PDict [("pr_generation", PInt (Z.of_N (ba_to_int (firstn 4 hdr)))); ("reservation_keys", PList (map prk_key descs))]).
Proof. exact prin_read_keys_exact. Qed.

(* REPORT TARGET PORT GROUPS (nested lists): every number of groups, each group with its own number of target ports *)
Theorem C04_py_rtpg_exact_length_only : forall (len4 : bytes) (groups : list tpg) (trail : bytes) f,
  length len4 = 4%nat -> Forall tpg_ok groups ->
  Z.of_N (ba_to_int len4) = Z.of_nat (length (concat (map tpg_bytes groups))) ->
  (forall g gs, groups = g :: gs -> lookup "format_type" (dict_of_decoded (decode_total (g_hdr g) T_ext)) = Some (PInt 0)) ->
  (2 * length (concat (map tpg_bytes groups)) + 4 <= f)%nat ->
  call_fun all_tables py_program f RTPG [PBytes (len4 ++ concat (map tpg_bytes groups) ++ trail)%list] =
  Ok (PDict [("format_type", PInt 0); ("target_port_group_descriptors", PList (map tpg_dict groups))]).
Proof. exact rtpg_exact_length_only. Qed.

Theorem C04_py_rtpg_exact_extended_header : forall (len4 ext : bytes) (groups : list tpg) (trail : bytes) (itt : pv) f,
  length len4 = 4%nat -> length ext = 4%nat -> Forall tpg_ok groups ->
  Z.of_N (ba_to_int len4) = Z.of_nat (4 + length (concat (map tpg_bytes groups))) ->
  lookup "format_type" (dict_of_decoded (decode_total ext T_ext)) = Some (PInt 1) ->
  lookup "implicit_transition_time" (dict_of_decoded (decode_total ext T_ext)) = Some itt ->
  (2 * length (concat (map tpg_bytes groups)) + 4 <= f)%nat ->
  call_fun all_tables py_program f RTPG [PBytes (len4 ++ (ext ++ concat (map tpg_bytes groups)) ++ trail)%list] =
  Ok (PDict [("format_type", PInt 1); ("implicit_transition_time", itt);
             ("target_port_group_descriptors", PList (map tpg_dict groups))]).
Proof. exact rtpg_exact_extended_header. Qed.

(* REPORT PRIORITY (descriptors that carry their own length): 8 fixed bytes + a TransportID of ADDITIONAL LENGTH bytes each *)
Theorem C04_py_report_priority_exact : forall (len4 : bytes) (descs : list pdesc) (trail : bytes) f,
  length len4 = 4%nat -> Forall pd_ok descs ->
  Z.of_N (ba_to_int len4) = Z.of_nat (length (concat (map pd_bytes descs))) ->
  (length descs + 2 <= f)%nat ->
  call_fun all_tables py_program f RPRI [PBytes (len4 ++ concat (map pd_bytes descs) ++ trail)%list] =
  Ok (PDict [("priority_descriptors", PList (map pd_dict descs))]).
Proof. exact report_priority_exact. Qed.

(* PERSISTENT RESERVE IN / READ FULL STATUS: 24 fixed bytes + a TransportID each; the TransportID is decoded by ANOTHER
   regenerated function (a call inside the loop); the theorem is compositional in what that function returns ... *)
Theorem C04_py_read_full_status_exact : forall (hdr : bytes) (descs : list fsdesc) (trail : bytes) f,
  length hdr = 8%nat -> Forall fs_ok descs ->
  Z.of_N (ba_to_int (skipn 4 hdr)) = Z.of_nat (length (concat (map fs_bytes descs))) ->
  (length descs + 3 <= f)%nat ->
  call_fun all_tables py_program f RFS [PBytes (hdr ++ concat (map fs_bytes descs) ++ trail)%list] =
  Ok (PDict [("pr_generation", PInt (Z.of_N (ba_to_int (firstn 4 hdr)))); ("full_status", PList (map fs_dict descs))]).
Proof. exact prin_read_full_status_exact. Qed.

(* ... and what it returns for the 24-byte Fibre Channel and SAS TransportIDs, whatever follows them in the buffer *)
Theorem C04_py_transport_id_fc_sas : forall tid, length tid = 24%nat ->
  (lookup "protocol_id" (tid_fields tid) = Some (PInt 0) ->
     tid_decodes tid (PDict (tid_fields tid ++ [("n_port_name", PBytes (firstn 8 (skipn 8 tid)))])%list)) /\
  (lookup "protocol_id" (tid_fields tid) = Some (PInt 6) ->
     tid_decodes tid (PDict (tid_fields tid ++ [("sas_address", PBytes (firstn 8 (skipn 4 tid)))])%list)).
Proof. intros tid Hl. split; intros Hp; [exact (tid_decodes_fc tid Hl Hp)|exact (tid_decodes_sas tid Hl Hp)]. Qed.

(* READ ELEMENT STATUS: header, any number of element status pages (own flags, descriptor length, descriptor count), anything.
   Exactly those pages with exactly their descriptors; volume tags where the page announces them (PVOLTAG / AVOLTAG, all four
   combinations); the fields of the page's element type. *)
Theorem C04_py_read_element_status_exact : forall (hdr : bytes) (pages : list espage) (trail : bytes) f,
  length hdr = 8%nat -> Forall page_ok pages ->
  Z.of_N (ba_to_int (skipn 5 hdr)) = Z.of_nat (length (concat (map page_bytes pages))) ->
  (2 * length (concat (map page_bytes pages)) + 4 <= f)%nat ->
  call_fun all_tables py_program f RES [PBytes (hdr ++ concat (map page_bytes pages) ++ trail)%list] =
  Ok (PDict (dict_update (res_header hdr) [("element_status_pages", PList (map page_dict pages))])).
Proof. exact read_element_status_exact. Qed.

(* non-vacuity: a storage page (type 2) with primary volume tags and two 52-byte descriptors meets page_ok *)
Example C04_example_res_page_ok :
  page_ok (mkEP [2; 0x80; 0; 52; 0; 0; 0; 104] (mkPF true false 2) 52 [zeros 52; (1 :: 2 :: zeros 50)%list]).
Proof.
  unfold page_ok. cbn [ep_hdr ep_flags ep_E ep_descs pf_pv pf_av pf_ty].
  repeat split; try (vm_compute; reflexivity); try (vm_compute; repeat constructor).
Qed.

(* non-vacuity: a two-group response (2 ports, 0 ports) with trailing bytes, run through the regenerated body *)
Example C04_example_py_rtpg :
  call_fun all_tables py_program 100 RTPG
    [PBytes ([0; 0; 0; 24] ++ ([0x81; 0x0F; 0; 7; 0; 0; 0; 2] ++ [0; 0; 0; 1] ++ [0; 0; 0; 2]) ++ [0x02; 0; 0; 9; 0; 0; 0; 0] ++ [7; 7])%list] =
  Ok (PDict [("format_type", PInt 0);
             ("target_port_group_descriptors", PList [
                PDict [("asymmetric_access_state", PInt 1); ("pref", PInt 1); ("ao_sup", PInt 1); ("an_sup", PInt 1); ("s_sup", PInt 1);
                       ("u_sup", PInt 1); ("o_sup", PInt 0); ("t_sup", PInt 0); ("target_port_group", PInt 7); ("status_code", PInt 0);
                       ("vendor", PInt 0); ("target_port_count", PInt 2);
                       ("target_ports", PList [PDict [("relative_target_port_id", PInt 1)]; PDict [("relative_target_port_id", PInt 2)]])];
                PDict [("asymmetric_access_state", PInt 2); ("pref", PInt 0); ("ao_sup", PInt 0); ("an_sup", PInt 0); ("s_sup", PInt 0);
                       ("u_sup", PInt 0); ("o_sup", PInt 0); ("t_sup", PInt 0); ("target_port_group", PInt 9); ("status_code", PInt 0);
                       ("vendor", PInt 0); ("target_port_count", PInt 0); ("target_ports", PList [])]])]).
Proof. vm_compute. reflexivity. Qed.
