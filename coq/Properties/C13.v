(* Properties/C13.v — "Each facade call sends exactly one command and decodes what the device returned".
   The 38 facade methods are REGENERATED as action lists (Gen/FacadeTbl.v). *)
From Coq Require Import String.
From PS Require Import Base.Bytes Model.Converter Model.Facade.
From PS Require Import Gen.Opcodes Gen.FacadeTbl Proofs.FacadeProps Proofs.Opcodes.
Open Scope string_scope.
Open Scope N_scope.

Theorem C13_nothing_skipped :
  match unknown_facade with [] => true | _ => false end = true /\ length facade_methods = 38%nat.
Proof. vm_compute. split; reflexivity. Qed.

(* every method: look up, construct with that opcode, execute once, (decode), return — and nothing else *)
Theorem C13_shape : forall m, In m facade_methods -> well_shaped (f_acts m) = true /\ method_wired m = true.
Proof.
  assert (H : forallb (fun m => well_shaped (f_acts m) && method_wired m) facade_methods = true) by (vm_compute; reflexivity).
  intros m Hm. rewrite forallb_forall in H. specialize (H m Hm). now apply andb_prop in H.
Qed.

(* what that shape means for every call, wherever it fails *)
Theorem C13_one_command : forall m, In m facade_methods ->
  (exists r, trace None (f_acts m) = [EvLookup; EvConstruct; EvExecute r; EvReturn] \/
             trace None (f_acts m) = [EvLookup; EvConstruct; EvExecute r; EvUnmarshall; EvReturn]) /\
  (forall f, (count_exec (trace f (f_acts m)) <= 1)%nat) /\
  (forall f, f = Some FailConstruct \/ f = Some FailLookup ->
     count_exec (trace f (f_acts m)) = 0%nat /\ has EvReturn (trace f (f_acts m)) = false) /\
  (has EvUnmarshall (trace (Some FailExecute) (f_acts m)) = false /\ has EvReturn (trace (Some FailExecute) (f_acts m)) = false).
Proof. intros m Hm. apply shape_sound. exact (proj1 (C13_shape m Hm)). Qed.

(* service-action opcodes found by key suffix: in every command set the first key ending in 9E / A3 has that value
   and carries the service actions the facade asks for; sets without such a key make next() raise StopIteration *)
Definition suffix_ok (S : string * list opentry) : bool :=
  match lookup_suffix (snd S) "9E" with
  | Some (_, (_, v, sas)) => (v =? 158) && optN_eqb (lookup "READ_CAPACITY_16" sas) (Some 16) && optN_eqb (lookup "GET_LBA_STATUS" sas) (Some 18)
  | None => true
  end &&
  match lookup_suffix (snd S) "A3" with
  | Some (_, (_, v, sas)) => (v =? 163) && optN_eqb (lookup "REPORT_PRIORITY" sas) (Some 14) && optN_eqb (lookup "REPORT_TARGET_PORT_GROUPS" sas) (Some 10)
  | None => true
  end.
Theorem C13_get_opcode : forall S, In S command_sets -> suffix_ok S = true.
Proof. apply forallb_forall. vm_compute. reflexivity. Qed.

(* the keyword arguments a method documents are parameters of the constructor it calls *)
Theorem C13_documented_kwargs : forall m, In m facade_methods -> doc_ok m = true.
Proof. apply forallb_forall. vm_compute. reflexivity. Qed.
