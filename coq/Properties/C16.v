(* Properties/C16.v — "Attaching to a device selects the command set of its peripheral device type".
   The decision table of __init_opcode, the INQUIRY data table and the opcode sets are REGENERATED. *)
From Coq Require Import String.
From PS Require Import Base.Bytes Base.Result Model.Converter Model.Ctor Model.Facade Model.Attach.
From PS Require Import Gen.Tables Gen.FacadeTbl Spec.SAM Proofs.FacadeProps Proofs.AttachProps Proofs.SenseProps.
From PS Require Proofs.DeviceProps.
Open Scope string_scope.
Open Scope N_scope.

Theorem C16_nothing_skipped : match unknown_facade with [] => true | _ => false end = true.
Proof. vm_compute. reflexivity. Qed.

(* all 32 device types x every command set the device object may currently carry *)
Theorem C16_type_map : forall t cur, t < 32 -> In cur set_names ->
  primary_ok (select t cur) = true /\ forall want, cmdset_of_type t = Some want -> select t cur = want.
Proof. apply map_sound. vm_compute. reflexivity. Qed.

(* the device type is bits 4:0 of byte 0 of the standard INQUIRY data: the peripheral qualifier never leaks into it *)
Theorem C16_type_field : forall data,
  lookup "peripheral_device_type" T_scsi_cdb_inquiry__Inquiry___datain_bits = Some (Mask 31 0) /\
  decode1 data (Mask 31 0) = Ok (VI (N.land (nth 0 data 0) 31)).
Proof.
  intros data. split; [vm_compute; reflexivity|].
  rewrite (decode1_byte data 31 0 0 ltac:(lia) eq_refl). now rewrite N.shiftr_0_r.
Qed.

(* every selectable set offers the primary commands with their T10 codes *)
Theorem C16_primary : forall s, In s set_names -> primary_ok s = true.
Proof. apply forallb_forall. vm_compute. reflexivity. Qed.

(* attaching issues exactly one command: the facade's own inquiry() with its defaults, a standard INQUIRY (EVPD = 0) *)
Theorem C16_one_inquiry :
  well_shaped (f_acts F_inquiry) = true /\
  lookup "evpd" (f_params F_inquiry) = Some (Some (CInt 0)) /\ lookup "page_code" (f_params F_inquiry) = Some (Some (CInt 0)) /\
  match f_acts F_inquiry with ALookup "INQUIRY" :: _ => true | _ => false end = true.
Proof. vm_compute. repeat split; reflexivity. Qed.

(* any history of attaches over several device objects: the device attached last carries the set of the type IT
   reported (for the recognised types), independent of everything before; other devices keep their sets *)
Theorem C16_history : forall devs h i b want,
  (i < length (attach_all devs h))%nat -> In (nth i (attach_all devs h) "spc") set_names ->
  cmdset_of_type (N.land b 31) = Some want ->
  nth i (attach (attach_all devs h) i b) "spc" = want /\
  forall j, j <> i -> nth j (attach (attach_all devs h) i b) "spc" = nth j (attach_all devs h) "spc".
Proof.
  (* Attach.set_nth is Device.set_nth under another name: the lemmas about the one apply by conversion *)
  intros devs h i b want Hi Hin Hw. unfold attach. split.
  - rewrite <- (proj2 (C16_type_map _ _ (land31_lt b) Hin) want Hw). now apply DeviceProps.nth_set_nth_same.
  - intros j Hj. apply DeviceProps.nth_set_nth_other. congruence.
Qed.

Example C16_example : attach_all ["spc"; "spc"; "spc"] [(0%nat, 5); (1%nat, 8 + 32); (0%nat, 0); (2%nat, 3)]
                      = ["sbc"; "smc"; "spc"].
Proof. vm_compute. reflexivity. Qed.
