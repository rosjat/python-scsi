(* Properties/C10.v — "The bit-field codec obeys its algebraic laws for every layout".
   First the laws of the codec model: only statements, every proof is `exact <lemma>`; all sizes, masks, offsets, values: no bound.
   Then: the regenerated converter.py computes that model (widths up to 65536 bytes, masks up to 4096 bits: the bounds are in the statements). *)
From Coq Require Import String Permutation.
From Coq Require Import ZArith.
From PS Require Import Base.Bytes Base.Result Model.Converter Proofs.Codec Proofs.Layout.
From PS Require Import Model.Py Proofs.PyLemmas Proofs.PyConverter Gen.PyConv Gen.Tables.

Theorem C10_int_to_bytes_to_int : forall v n, ba_to_int (int_to_ba v n) = v mod 256 ^ N.of_nat n.
Proof. exact ba_to_int_to_ba. Qed.

Theorem C10_bytes_to_int_to_bytes : forall l, bytes_ok l -> int_to_ba (ba_to_int l) (length l) = l.
Proof. exact int_to_ba_to_int. Qed.

Theorem C10_big_endian : forall v n i, (i < n)%nat ->
  nth i (int_to_ba v n) 0 = (v / 256 ^ N.of_nat (n - 1 - i)) mod 256.
Proof. exact int_to_ba_nth. Qed.

(* the integer view and the T10 byte/bit view of a buffer coincide *)
Theorem C10_bit_view : forall l j, bytes_ok l -> j < 8 * N.of_nat (length l) ->
  N.testbit (ba_to_int l) j = N.testbit (nth (length l - 1 - N.to_nat (j / 8)) l 0) (j mod 8).
Proof. exact bit_view. Qed.

Theorem C10_encode_writes_exactly_its_bits : forall n r f g v x,
  geom_of n f = Some g -> length r = n -> bytes_ok r -> vint f v = Some x -> x < 2 ^ g_w g ->
  exists r', encode1 r f v = Ok r' /\ length r' = n /\ bytes_ok r' /\
    forall j, N.testbit (ba_to_int r') j =
              if in_field g j then write_bit f g x (N.testbit (ba_to_int r) j) j
              else N.testbit (ba_to_int r) j.
Proof. exact encode1_bits. Qed.

Theorem C10_decode_reads_exactly_its_bits : forall n r f g,
  geom_of n f = Some g -> length r = n -> bytes_ok r ->
  exists v x, decode1 r f = Ok v /\ vint f v = Some x /\ x < 2 ^ g_w g /\
    forall i, N.testbit x i = (i <? g_w g) && N.testbit (ba_to_int r) (g_lo g + i).
Proof. exact decode1_bits. Qed.

(* decode after encode returns the value; untouched fields keep their content *)
Theorem C10_decode_encode : forall n L d r k f,
  wf_layout n L = true -> valid_dict n L d = true -> length r = n -> bytes_ok r -> In (k, f) L ->
  exists r', encode_dict d L r = Ok r' /\ length r' = n /\ bytes_ok r' /\
    (forall v, In (k, v) d -> ba_to_int r = 0 -> decode1 r' f = Ok v) /\
    (~ In k (map fst d) -> decode1 r' f = decode1 r f).
Proof. exact decode_encode_field. Qed.

(* frame: bits outside the supplied fields are unchanged, whatever the prior contents *)
Theorem C10_frame : forall n L d r,
  valid_dict n L d = true -> length r = n -> bytes_ok r ->
  exists r', encode_dict d L r = Ok r' /\ length r' = n /\
    forall j, (forall k v f g, In (k, v) d -> lookup k L = Some f -> geom_of n f = Some g -> in_field g j = false) ->
      N.testbit (ba_to_int r') j = N.testbit (ba_to_int r) j.
Proof. exact encode_frame. Qed.

Theorem C10_order_independent : forall n L d d' r,
  wf_layout n L = true -> valid_dict n L d = true -> Permutation d d' -> length r = n -> bytes_ok r ->
  exists r', encode_dict d L r = Ok r' /\ encode_dict d' L r = Ok r'.
Proof. exact encode_perm. Qed.

(* encode after decode reproduces any buffer whose bits outside the fields are zero *)
Theorem C10_encode_decode : forall n L b,
  wf_layout n L = true -> length b = n -> bytes_ok b ->
  (forall j, (forall k f g, In (k, f) L -> geom_of n f = Some g -> in_field g j = false) ->
             N.testbit (ba_to_int b) j = false) ->
  exists d, decode_bits b L = Ok d /\ encode_dict d L (zeros n) = Ok b.
Proof. exact encode_decode. Qed.

(* changing one field's value changes only that field *)
Theorem C10_field_independence : forall n L d d' r k k2 f2,
  wf_layout n L = true -> valid_dict n L d = true -> valid_dict n L d' = true ->
  length r = n -> bytes_ok r -> map fst d = map fst d' ->
  (forall k1 v, k1 <> k -> (In (k1, v) d <-> In (k1, v) d')) ->
  In (k2, f2) L -> k2 <> k ->
  exists r1 r2, encode_dict d L r = Ok r1 /\ encode_dict d' L r = Ok r2 /\ decode1 r1 f2 = decode1 r2 f2.
Proof. exact field_independence. Qed.

(* what the code does outside the hypotheses *)
Theorem C10_outside_mask_zero : forall r o v, encode1 r (Mask 0 o) (VI v) = Raise Diverges.
Proof. exact encode_mask_zero. Qed.
Theorem C10_outside_out_of_bounds : forall r m o v z, ctz m = Some z ->
  (length r < N.to_nat o + nbytes m)%nat -> encode1 r (Mask m o) (VI v) = Raise IndexError.
Proof. exact encode_out_of_bounds. Qed.

(* non-vacuity: a 36-bit field starting at bit 3 and spanning 5 bytes, a 72-bit (9-byte) mask, a 3-bit
   field, and "b"/"w"/"dw" blobs form a well-formed layout of a 32-byte buffer; a dictionary with
   boundary values is valid for it *)
Open Scope string_scope.
Definition ex_layout : layout :=
  [("wide36", Mask (N.shiftl (N.ones 36) 3) 0); ("nine", Mask (N.ones 72) 5); ("flag3", Mask 7 4);
   ("blob", Blob 1 14 3); ("words", Blob 2 18 2); ("dwords", Blob 4 24 2)].
Example C10_example_wf : wf_layout 32 ex_layout = true.
Proof. vm_compute. reflexivity. Qed.
Example C10_example_valid :
  valid_dict 32 ex_layout [("nine", VI (N.ones 72)); ("wide36", VI (2 ^ 35)); ("blob", VB [1; 2; 255]);
                           ("words", VB [1; 2; 3; 4]); ("flag3", VI 5)] = true.
Proof. vm_compute. reflexivity. Qed.


(* ---------------------------------------------------------------------------------------------------------------------
   The model above IS the code: pyscsi/utils/converter.py is REGENERATED on every run into programs of the small Python
   (Gen/PyConv.v, conv_program), and under the semantics of Model/Py.v those programs compute exactly what Base/Bytes.v and
   Model/Converter.v compute — for every value, width, byte string, well-formed layout and dictionary (Proofs/PyConverter.v). *)

Theorem C10_py_nothing_unknown : conv_unknown = [] /\ length conv_program = 4%nat.
Proof. vm_compute. split; reflexivity. Qed.

Theorem C10_py_int_to_ba : forall (v : N) (n : Z) f, (0 <= n <= 65536)%Z -> (1 <= f)%nat ->
  call_fun [] conv_program f "converter.scsi_int_to_ba" [PInt (Z.of_N v); PInt n] = Ok (PBytes (int_to_ba v (Z.to_nat n))).
Proof. exact py_int_to_ba. Qed.

Theorem C10_py_ba_to_int : forall (b : bytes) f, (Z.of_nat (length b) <= 65536)%Z -> (1 <= f)%nat ->
  call_fun [] conv_program f "converter.scsi_ba_to_int" [PBytes b] = Ok (PInt (Z.of_N (ba_to_int b))).
Proof. exact py_ba_to_int. Qed.

(* decode_bits(data, TABLE, result): the dictionary it leaves in `result` is the model's decode_bits, merged into what was there *)
Theorem C10_py_decode_bits : forall (L : layout) (data : bytes) (cur : list (string * pv)) f r,
  forallb (fun kf => fdesc_py_ok (snd kf)) L = true -> names_distinct (map fst L) = true ->
  Forall (fun kf => (fdesc_fuel (snd kf) <= f)%nat) L ->
  decode_bits data L = Ok r ->
  call_fun [] conv_program (S f) "converter.decode_bits" [PBytes data; pv_of_layout L; PDict cur]
  = Ok (PDict (dict_update cur (dict_of_decoded r))).
Proof. intros L data cur f r Hok Hd Hf Hr. rewrite py_decode_bits by assumption. unfold decode_total. now rewrite Hr. Qed.

(* encode_dict(data_dict, TABLE, result): the buffer it leaves in `result` is the model's encode_dict *)
Theorem C10_py_encode_dict : forall (L : layout) (dv : list (string * value)) (r r' : bytes) f,
  forallb (fun kf => fdesc_py_ok (snd kf)) L = true -> Forall (fun kf => (fdesc_fuel (snd kf) <= f)%nat) L ->
  names_distinct (map fst dv) = true -> values_ok dv -> bytes_ok r ->
  encode_dict dv L r = Ok r' ->
  call_fun [] conv_program (S f) "converter.encode_dict" [PDict (dict_of_decoded dv); pv_of_layout L; PBytes r] = Ok (PBytes r').
Proof. exact py_encode_dict_refines. Qed.

(* the hypotheses are met by every one of the library's own (regenerated) tables, with one fuel bound for all of them *)
Theorem C10_py_every_table_in_scope : forall t L, In (t, L) all_tables ->
  forallb (fun kf => fdesc_py_ok (snd kf)) L = true /\ names_distinct (map fst L) = true /\
  forall f, (Z.to_nat 4200 <= f)%nat -> Forall (fun kf => (fdesc_fuel (snd kf) <= f)%nat) L.
Proof.
  assert (H : forallb (fun tl => forallb (fun kf => fdesc_py_ok (snd kf)) (snd tl) && names_distinct (map fst (snd tl))) all_tables = true)
    by (vm_compute; reflexivity).
  intros t L Hin. rewrite forallb_forall in H. specialize (H _ Hin). cbn [snd] in H. apply andb_prop in H. destruct H as [H1 H2].
  split; [exact H1|]. split; [exact H2|]. intros f Hf. now apply fuel_bound.
Qed.
