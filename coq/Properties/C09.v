(* Properties/C09.v — "Command objects are isolated from one another, in any order or interleaving".
   The footprint scan of scsi_command.py and every scsi_cdb_*.py (writes to class attributes, module globals and
   the caller's own dict/list arguments inside functions) is REGENERATED on every run (Gen/Footprint.v); the
   constructor semantics threads the class-level state the library used to keep, and we PROVE that no statement
   of any regenerated constructor reads or writes it: whatever that state is (i.e. whatever other commands did
   before, after or in between), the command built and the result of decoding/encoding with its class are the same. *)
From Coq Require Import String.
From PS Require Import Base.Bytes Base.Result Model.Converter Model.Ctor Model.InitCdb.
From PS Require Import Gen.Ctors Gen.Footprint.
From PS Require Gen.Misc.
From PS Require Proofs.CtorSound.
Open Scope string_scope.

(* no function of the command modules writes an attribute of a class object, a module global, or a dictionary /
   list it was handed by its caller *)
Theorem C09_footprint_empty : shared_writes = [] /\ param_mutations = [].
Proof. vm_compute. split; reflexivity. Qed.

(* constructing a command neither reads nor writes shared state: for ANY two values of the class-level state
   (= any history of other commands), the same arguments build the same command, and the state is left untouched *)
Theorem C09_construction_isolated : forall key c, In (key, c) all_ctors ->
  forall ext op G1 G2 pos kw,
    snd (run_ctor ext op c init_cdb G1 pos kw) = snd (run_ctor ext op c init_cdb G2 pos kw) /\
    fst (run_ctor ext op c init_cdb G1 pos kw) = G1.
Proof.
  intros key c _ ext op G1 G2 pos kw. unfold run_ctor.
  destruct (bind_args c pos kw) as [ρ|e]; [|split; reflexivity].
  pose proof (Proofs.CtorSound.run_snd ext op c init_cdb (c_body c) G1 G2 (ρ, cmd0)) as H.
  destruct (run ext op c init_cdb G1 (ρ, cmd0) (c_body c)) as [Ga r1] eqn:R1. apply Proofs.CtorSound.run_G_any in R1 as ->.
  destruct (run ext op c init_cdb G2 (ρ, cmd0) (c_body c)) as [Gb r2]. cbn [snd] in H. subst r2.
  destruct r1 as [[ρa ca]|ea]; split; reflexivity.
Qed.

(* decoding / encoding with a class is a function of that class's own table only (classmethods over cls._cdb_bits):
   the model functions take no state at all *)
Theorem C09_codec_is_stateless : forall c b d,
  unmarshall_cdb c b = decode_bits b (c_bits c) /\
  (forall v n, lookup "opcode" d = Some (VI v) -> init_cdb v = Ok n -> marshall_cdb init_cdb c d = encode_dict d (c_bits c) (zeros n)).
Proof.
  intros c b d. split; [reflexivity|]. intros v n Hv Hi. unfold marshall_cdb. now rewrite Hv, Hi.
Qed.

(* interleavings: threads that each run their own sequence of constructions. Each construction is a function of
   thread-local data only (theorem above), so under ANY schedule every thread obtains what it obtains running alone *)
Section Sched.
  Variable T : Type.                       (* a thread-local step *)
  Variable local : Type.                   (* thread-local state *)
  Variable lstep : local -> T -> local.    (* a step touches only its own thread's state *)

  Fixpoint set_nth {A} (l : list A) (n : nat) (x : A) : list A :=
    match l, n with [], _ => [] | _ :: l', O => x :: l' | y :: l', S n' => y :: set_nth l' n' x end.

  (* the schedule names, for each global step, which thread moves and what it does next *)
  Fixpoint run_sched (sts : list local) (sched : list (nat * T)) : list local :=
    match sched with
    | [] => sts
    | (i, t) :: rest =>
        match nth_error sts i with
        | Some s => run_sched (set_nth sts i (lstep s t)) rest
        | None => run_sched sts rest
        end
    end.

  Definition project (i : nat) (sched : list (nat * T)) : list T :=
    map snd (filter (fun it => Nat.eqb (fst it) i) sched).

  Lemma nth_error_set_same {A} (l : list A) i x y : nth_error l i = Some y -> nth_error (set_nth l i x) i = Some x.
  Proof. revert i; induction l as [|z l IH]; intros [|i]; cbn; try discriminate; auto. Qed.
  Lemma nth_error_set_other {A} (l : list A) i j x : i <> j -> nth_error (set_nth l i x) j = nth_error l j.
  Proof. revert i j; induction l as [|z l IH]; intros [|i] [|j] H; cbn; try reflexivity; try congruence. apply IH. congruence. Qed.

  Theorem C09_schedule_independent : forall sched sts i s,
    nth_error sts i = Some s ->
    nth_error (run_sched sts sched) i = Some (fold_left lstep (project i sched) s).
  Proof.
    induction sched as [|[j t] sched IH]; intros sts i s Hi; cbn [run_sched project filter map fold_left fst snd]; [assumption|].
    destruct (nth_error sts j) as [sj|] eqn:Hj.
    - destruct (Nat.eqb_spec j i) as [->|Hne].
      + rewrite Hi in Hj. inversion Hj; subst sj. cbn [map fold_left snd].
        apply IH. eapply nth_error_set_same; eassumption.
      + apply IH. now rewrite nth_error_set_other.
    - destruct (Nat.eqb_spec j i) as [->|Hne]; [congruence|]. now apply IH.
  Qed.
End Sched.

(* the base class all commands share is exactly the modelled text and carries no state of its own (see C01) *)
Theorem C09_command_base_is_the_modelled_text : Gen.Misc.command_base_unknown = [].
Proof. vm_compute. reflexivity. Qed.

(* "Repeating a marshalling call with equal inputs yields equal bytes": none of the REGENERATED builder / decoder bodies changes, in place,
   an object that belongs to its caller — a local bound to (part of) a parameter (`x = p`, `x = p[k]`, `x = p.get(k, ..)`, `for x in p[k]`,
   or what another function of the package returned for it) and then extended with `+=`, stored into, appended to or used as an
   out-buffer of the codec.  (A bytes value is rebound by `+=`, a bytearray or list is extended in place: what the decoder of one command
   returned and the caller passes on to the builder of another would change under the first command's feet.)  Decided by the
   translator's flow-insensitive scan on every run; the documented out-buffer parameters are listed in py_unknown, not here. *)
From PS Require Gen.PyFuncs.
Theorem C09_py_builders_leave_the_callers_objects_alone : Gen.PyFuncs.py_caller_mutations = [].
Proof. vm_compute. reflexivity. Qed.
