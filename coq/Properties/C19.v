(* Properties/C19.v — "The transport bindings are optional; a missing one is refused, not half-used"
   (dispatch part; the import half is exercised in four interpreter configurations by the runner).
   For ALL device strings, both access modes, all initiator names and the four presence combinations. *)
From Coq Require Import String Ascii.
From PS Require Import Base.Bytes Base.Result Model.InitDevice Gen.Misc.
Open Scope string_scope.

(* the regenerated prefix tests compare exactly as many characters as the literal has *)
Theorem C19_slices_are_prefixes :
  init_device_rows = [(5%nat, "/dev/", "SCSIDevice"); (8%nat, "iscsi://", "ISCSIDevice")] /\
  scsi_device_guard = Some (5%nat, "/dev/") /\ iscsi_device_guard = Some (8%nat, "iscsi://") /\
  init_device_else_raises = true /\
  (* the requested name is stored unmodified by __init__ and is what open() hands to the binding (stores REGENERATED) *)
  name_flow_ok scsi_device_name_flow = true /\ name_flow_ok iscsi_device_name_flow = true.
Proof. vm_compute. repeat split; reflexivity. Qed.

Lemma slice_prefix lit s : slice_eq (String.length lit) lit s = String.prefix lit s.
Proof.
  unfold slice_eq. destruct (String.prefix lit s) eqn:P.
  - apply String.prefix_correct in P. rewrite P. apply String.eqb_refl.
  - destruct (String.eqb_spec (String.substring 0 (String.length lit) s) lit) as [E|]; [|reflexivity].
    apply String.prefix_correct in E. congruence.
Qed.

Lemma dev_prefix dev : slice_eq 5 "/dev/" dev = String.prefix "/dev/" dev.
Proof. exact (slice_prefix "/dev/" dev). Qed.
Lemma iscsi_prefix dev : slice_eq 8 "iscsi://" dev = String.prefix "iscsi://" dev.
Proof. exact (slice_prefix "iscsi://" dev). Qed.

Lemma not_both dev : String.prefix "/dev/" dev = true -> String.prefix "iscsi://" dev = false.
Proof.
  destruct dev as [|c dev]; [discriminate|]. cbn [String.prefix].
  destruct (Ascii.ascii_dec "/"%char c) as [<-|Hne]; [intros _|intros H; discriminate H].
  destruct (Ascii.ascii_dec "i"%char "/"%char) as [E|_]; [discriminate E|reflexivity].
Qed.

Theorem C19_dispatch : forall cfg dev rw iname,
  (String.prefix "/dev/" dev = true ->
     init_device cfg dev rw iname =
       if has_sgio cfg then Ok (DSCSIDevice, [COpen dev (if rw then "w+b" else "rb")]) else Raise NotImplementedError) /\
  (String.prefix "iscsi://" dev = true ->
     init_device cfg dev rw iname =
       if has_iscsi cfg
       then Ok (DISCSIDevice, [CContext (if Nat.eqb (String.length iname) 0 then dev else iname); CUrl dev; CConnect])
       else Raise NotImplementedError) /\
  (String.prefix "/dev/" dev = false -> String.prefix "iscsi://" dev = false ->
     init_device cfg dev rw iname = Raise NotImplementedError).
Proof.
  intros cfg dev rw iname. destruct C19_slices_are_prefixes as (R & G1 & G2 & E & N1 & N2).
  unfold init_device. rewrite R. cbn [dispatch]. unfold new_scsi_device, new_iscsi_device, guard_passes, opened_name.
  rewrite G1, G2, E, N1, N2.
  rewrite !dev_prefix, !iscsi_prefix. cbn [String.eqb Ascii.eqb Bool.eqb].
  repeat split.
  - intros H. rewrite H. cbn. destruct (has_sgio cfg); reflexivity.
  - intros H. assert (H' : String.prefix "/dev/" dev = false).
    { destruct (String.prefix "/dev/" dev) eqn:P; [|reflexivity]. apply not_both in P. congruence. }
    rewrite H', H. cbn. destruct (has_iscsi cfg); reflexivity.
  - intros H1 H2. rewrite H1, H2. reflexivity.
Qed.

(* constructing the device classes directly with a foreign path, or without the binding: refused, nothing opened *)
Theorem C19_constructor_guards : forall cfg dev rw iname,
  (String.prefix "/dev/" dev = false \/ has_sgio cfg = false -> new_scsi_device cfg dev rw = Raise NotImplementedError) /\
  (String.prefix "iscsi://" dev = false \/ has_iscsi cfg = false -> new_iscsi_device cfg dev iname = Raise NotImplementedError).
Proof.
  intros cfg dev rw iname. destruct C19_slices_are_prefixes as (_ & G1 & G2 & _ & _ & _).
  unfold new_scsi_device, new_iscsi_device, guard_passes. rewrite G1, G2.
  rewrite dev_prefix, iscsi_prefix.
  split; intros [H|H]; rewrite H; try reflexivity; now rewrite andb_false_r.
Qed.

Example C19_example : init_device (mkCfg true false) "/dev/sg3" true "" = Ok (DSCSIDevice, [COpen "/dev/sg3" "w+b"]) /\
                      init_device (mkCfg true false) "iscsi://h/t/0" false "" = Raise NotImplementedError /\
                      init_device (mkCfg true true) "/dev" false "" = Raise NotImplementedError.
Proof. vm_compute. repeat split; reflexivity. Qed.
