(* Proofs/EnumRefine.v — the Enum metaclass refines an ordinary insertion-ordered dictionary, for every
   sequence of add / remove / lookup / reverse-lookup / keys operations, provided the `keys` filter
   keeps exactly the non-dunder names (a decidable condition on the REGENERATED filter). *)
From Coq Require Import String.
From PS Require Import Base.Bytes Model.Converter Model.Enum Proofs.Dict.
Open Scope string_scope.

(* the filter lists a name iff it is not a dunder name — for every kind of value: (callable, dunder, method), and a method is
   callable, so the two triples (false, _, true) do not occur *)
Definition filter_ok (f : fexpr) : bool :=
  forallb (fun cdm : bool * bool * bool =>
             let '(c, d, m) := cdm in Bool.eqb (feval f c d m) (negb d))
          [(false, false, false); (false, true, false); (true, false, false); (true, true, false);
           (true, false, true); (true, true, true)].

Definition visible (kv : string * evalue) : bool := negb (is_dunder (fst kv)).
Definition abs (st : estate) : estate := filter visible st.

Lemma visible_eq k v : visible (k, v) = negb (is_dunder k).
Proof. reflexivity. Qed.

Definition name_ok (o : eop) : bool :=
  match o with
  | OAdd k _ | ORemove k | OGet k => negb (is_dunder k)
  | _ => true
  end.

Definition Inv (st d : estate) : Prop := d = abs st /\ NoDup (map fst st).

Lemma mem_lookup {A} k (l : list (string * A)) :
  mem k (map fst l) = match lookup k l with Some _ => true | None => false end.
Proof.
  induction l as [|[k1 v1] l IH]; cbn [map fst mem lookup]; [reflexivity|].
  destruct (String.eqb k k1); [reflexivity|exact IH].
Qed.

Lemma del_keys_subset {A} (l : list (string * A)) k x : In x (map fst (dict_del l k)) -> In x (map fst l).
Proof.
  induction l as [|[k1 v1] l IH]; cbn [dict_del map fst In]; [tauto|].
  destruct (String.eqb_spec k k1); [intros; now right|]. cbn [map fst In]. intros [E|H]; [now left|right; auto].
Qed.

Lemma NoDup_del {A} (l : list (string * A)) k : NoDup (map fst l) -> NoDup (map fst (dict_del l k)).
Proof.
  induction l as [|[k1 v1] l IH]; cbn [dict_del map fst]; intros H; [constructor|].
  inversion H as [|? ? Hni Hnd]; subst. destruct (String.eqb_spec k k1); [assumption|].
  cbn [map fst]. constructor; [|auto]. intros Hin. apply Hni. eapply del_keys_subset; eassumption.
Qed.

Section Refine.
  Variable filt : fexpr.
  Hypothesis Hf : filter_ok filt = true.

  Lemma keep_visible kv : keep filt kv = visible kv.
  Proof.
    unfold keep, visible. destruct kv as [k v]. cbn [fst snd].
    pose proof Hf as Hg. unfold filter_ok in Hg. rewrite forallb_forall in Hg.
    apply Bool.eqb_prop, (Hg (is_callable v, is_dunder k, is_method v)).
    destruct v as [n|s|tag [| |]]; destruct (is_dunder k); cbn; tauto.
  Qed.

  Lemma keys_abs st : e_keys filt st = map fst (abs st).
  Proof.
    unfold e_keys, abs. f_equal. apply filter_ext. intros kv. apply keep_visible.
  Qed.

  Lemma lookup_abs st k : is_dunder k = false -> lookup k (abs st) = lookup k st.
  Proof.
    intros Hk. unfold abs. induction st as [|[k1 v1] st IH]; cbn [filter lookup]; [reflexivity|].
    rewrite visible_eq.
    destruct (String.eqb_spec k k1) as [->|Hne].
    - rewrite Hk. cbn [negb lookup]. now rewrite String.eqb_refl.
    - destruct (is_dunder k1); cbn [negb lookup]; [exact IH|].
      destruct (String.eqb_spec k k1); [contradiction|exact IH].
  Qed.

  Lemma abs_app a b : abs (a ++ b)%list = (abs a ++ abs b)%list.
  Proof. unfold abs. apply filter_app. Qed.

  Lemma abs_del st k : is_dunder k = false -> abs (dict_del st k) = dict_del (abs st) k.
  Proof.
    intros Hk. unfold abs. induction st as [|[k1 v1] st IH]; [reflexivity|].
    cbn [dict_del]. destruct (String.eqb_spec k k1) as [->|Hne].
    - cbn [filter]. rewrite visible_eq, Hk. cbn [negb dict_del]. now rewrite String.eqb_refl.
    - cbn [filter]. destruct (visible (k1, v1)) eqn:V.
      + cbn [dict_del]. destruct (String.eqb_spec k k1); [contradiction|]. now rewrite IH.
      + exact IH.
  Qed.

  (* reverse lookup: searching the names of a list of pairs by the value the dictionary holds for them = searching
     the pairs, when the dictionary holds each pair *)
  Lemma find_rev st v l : (forall k w, In (k, w) l -> lookup k st = Some w) ->
    (match find (fun k => match lookup k st with Some w => evalue_eqb w v | None => false end) (map fst l) with
     | Some k => k | None => "" end) =
    (match find (fun kv => evalue_eqb (snd kv) v) l with Some kv => fst kv | None => "" end).
  Proof.
    induction l as [|[k w] l IH]; intros Hl; cbn [map fst find snd]; [reflexivity|].
    rewrite (Hl k w (or_introl eq_refl)). destruct (evalue_eqb w v); [reflexivity|].
    apply IH. intros; apply Hl; now right.
  Qed.

  Theorem step_refines st d o : Inv st d -> name_ok o = true ->
    let '(st', r) := e_step filt st o in let '(d', r') := d_step d o in r = r' /\ Inv st' d'.
  Proof.
    intros [Hd Hnd] Hn. subst d. destruct o as [k v|k|k|v|]; cbn [name_ok] in Hn; cbn [e_step d_step].
    - (* add *)
      apply negb_true_iff in Hn. unfold e_add. rewrite keys_abs, mem_lookup.
      destruct (lookup k (abs st)) as [w|] eqn:Hl; [repeat split; trivial|].
      rewrite lookup_abs in Hl by assumption. rewrite (dict_set_fresh st k v Hl). repeat split.
      + rewrite abs_app. f_equal. unfold abs. cbn [filter]. now rewrite visible_eq, Hn.
      + rewrite map_app. cbn [map fst]. apply NoDup_app_intro; [assumption|repeat constructor; tauto|].
        intros x Hin [<-|[]]. destruct (lookup_in_keys _ _ Hin) as [w E]. congruence.
    - (* remove *)
      apply negb_true_iff in Hn. unfold e_remove. rewrite lookup_abs by assumption.
      destruct (lookup k st) as [w|] eqn:Hl.
      + split; [reflexivity|]. split; [now rewrite abs_del|now apply NoDup_del].
      + repeat split; trivial.
    - (* getattr *)
      apply negb_true_iff in Hn. unfold e_getattr. rewrite lookup_abs by assumption.
      destruct (lookup k st); repeat split; trivial.
    - (* reverse lookup *)
      repeat split; trivial. unfold e_getitem. rewrite keys_abs. f_equal.
      apply find_rev. intros k w Hin. apply filter_In in Hin as [Hin _]. now apply lookup_nodup.
    - (* keys *)
      repeat split; trivial. now rewrite keys_abs.
  Qed.

  Theorem run_refines ops : forall st d, Inv st d -> forallb name_ok ops = true ->
    snd (e_run filt st ops) = snd (d_run d ops) /\ Inv (fst (e_run filt st ops)) (fst (d_run d ops)).
  Proof.
    induction ops as [|o ops IH]; intros st d HI Hn; cbn [e_run d_run]; [cbn [fst snd]; auto|].
    cbn [forallb] in Hn. apply andb_prop in Hn as [Ho Hn].
    pose proof (step_refines st d o HI Ho) as Hs.
    destruct (e_step filt st o) as [st1 r]. destruct (d_step d o) as [d1 r'].
    destruct Hs as [-> HI1]. specialize (IH st1 d1 HI1 Hn).
    destruct (e_run filt st1 ops) as [st2 rs]. destruct (d_run d1 ops) as [d2 rs'].
    cbn [fst snd] in *. destruct IH as [-> HI2]. auto.
  Qed.

  (* a freshly built enumeration exposes exactly the supplied names with their values *)
  Lemma new_inv m : NoDup (map fst m) -> forallb visible m = true -> Inv (e_new m) m.
  Proof.
    intros Hnd Hv. unfold Inv, e_new. split.
    - rewrite abs_app. unfold abs at 2. cbn. rewrite app_nil_r. unfold abs.
      symmetry. clear Hnd. induction m as [|kv m IH]; cbn [filter forallb] in *; [reflexivity|].
      apply andb_prop in Hv as [A B]. rewrite A. f_equal. now apply IH.
    - rewrite map_app. cbn [hidden_attrs map fst].
      assert (Hh : forall k, In k ["__module__"; "__dict__"; "__weakref__"; "__doc__"] -> ~ In k (map fst m)).
      { intros k Hk Hin. apply in_map_iff in Hin as ([k' v] & E & Hin). cbn [fst] in E. subst k'.
        rewrite forallb_forall in Hv. specialize (Hv _ Hin). rewrite visible_eq in Hv.
        destruct Hk as [<-|[<-|[<-|[<-|[]]]]]; discriminate. }
      apply NoDup_app_intro; [assumption|repeat constructor; cbn [In]; intuition discriminate|].
      intros k Hin Hk. exact (Hh k Hk Hin).
  Qed.
End Refine.
