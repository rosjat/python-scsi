(* Proofs/XferProps.v — what the regenerated transfer set-up of ISCSIDevice.execute computes, for all buffer lengths; the check of the
   regenerated SG_IO arguments (sgio_args_ok), evaluated once. *)
From Coq Require Import String.
From PS Require Import Base.Bytes Model.Xfer Gen.Misc.
Open Scope string_scope.
Open Scope N_scope.

(* data-out takes precedence, then data-in, else no transfer *)
Lemma iscsi_xfer_spec lo li :
  iscsi_xfer lo li = Some (if negb (lo =? 0) then ("SCSI_XFER_WRITE", lo)
                           else if negb (li =? 0) then ("SCSI_XFER_READ", li) else ("SCSI_XFER_NONE", 0)).
Proof.
  unfold iscsi_xfer, iscsi_xfer_prog, iscsi_xfer_vars. cbn -[N.eqb].
  destruct (lo =? 0); destruct (li =? 0); reflexivity.
Qed.

Lemma sgio_args_checked : sgio_args_ok = true. Proof. vm_compute. reflexivity. Qed.

