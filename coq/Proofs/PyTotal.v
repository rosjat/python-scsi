(* Proofs/PyTotal.v — what the REGENERATED decoder bodies (Gen/PyFuncs.v) do on EVERY byte string, under Model/Py.v: they return (they do
   not raise, they do not run out of fuel) after len/stride + 2 loop iterations at most, and the result is the list of the successive
   stride-sized pieces of the announced part of the buffer, each decoded with the library's table (one lemma `…_run` per decoder).
   Corollaries: C11 (termination within work proportional to the buffer, for hostile input: `…_total`) and, for GET LBA STATUS
   and READ KEYS, the C04 exactness theorem on a conformant response (`…_exact`), where the pieces are the descriptors the device sent. *)
From Coq Require Import String ZArith DecimalString.
From PS Require Import Base.Bytes Base.Result Model.Converter Model.Py Proofs.PyLemmas Proofs.PyParsers Proofs.Termination Gen.Tables Gen.PyFuncs.
Open Scope string_scope.
Open Scope nat_scope.

(* the successive k-sized pieces of a list (the last one may be shorter) *)
Fixpoint chunks (fuel k : nat) (l : bytes) : list bytes :=
  match fuel with
  | O => []
  | S f => match l with [] => [] | _ => firstn k l :: chunks f k (skipn k l) end
  end.

(* the pieces are the heads of the remainders a loop with stride k sees *)
Lemma chunks_suffixes k fuel l : chunks fuel k l = map (firstn k) (suffixes (skipn k) fuel l).
Proof. revert l. induction fuel as [|f IH]; intros l; [reflexivity|]. destruct l; [reflexivity|]. cbn [chunks suffixes map]. now rewrite IH. Qed.

Lemma chunks_concat (k : nat) (ds : list bytes) : 1 <= k -> Forall (fun d => length d = k) ds ->
  forall fuel, length (concat ds) <= fuel -> chunks fuel k (concat ds) = ds.
Proof.
  intros Hk H. induction H as [|d ds Hd Hall IH]; intros fuel Hf; [destruct fuel; reflexivity|].
  cbn [concat] in *. rewrite app_length in Hf. destruct fuel as [|fuel]; [lia|].
  destruct d as [|a d]; [cbn in Hd; lia|]. cbn [chunks app]. change (a :: d ++ concat ds)%list with ((a :: d) ++ concat ds)%list.
  subst k. now rewrite VarListProps.firstn_app_exact, VarListProps.skipn_app_exact, IH by lia.
Qed.

Lemma pieces_fuel next (data : bytes) lo hi f : length data + 2 <= f ->
  length (suffixes next (length (py_slice data lo hi)) (py_slice data lo hi)) + 2 <= f.
Proof.
  intros H. pose proof (suffixes_length next (length (py_slice data lo hi)) (py_slice data lo hi)).
  pose proof (py_slice_length_le data lo hi). lia.
Qed.

Notation PF_gls := PF_scsi_cdb_getlbastatus_GetLBAStatus_unmarshall_datain.

(* on every input, with one unit of fuel per piece: the every-input theorem and the one for conformant responses both follow.
   + 2: one unit to enter the function, one for the test of the loop condition that ends the loop (the `_total` statements ask for + 3) *)
Lemma getlbastatus_run : forall (data : bytes) f,
  let announced := py_slice data (Some 8%Z) (Some (Z.of_N (ba_to_int (py_slice data None (Some 4%Z))) + 4)%Z) in
  length (chunks (length announced) 16 announced) + 2 <= f ->
  call_fun all_tables py_program f GLS [PBytes data] = Ok (PDict [("lbas", PList (map gls_desc (chunks (length announced) 16 announced)))]).
Proof.
  intros data f announced Hf. rewrite chunks_suffixes in *. rewrite (@map_length bytes bytes) in Hf.
  destruct f as [|[|f]]; try lia. eapply call_with_ret; [exact gls_lookup|reflexivity|]. cbn [fn_body PF_gls].
  step. step. cbn [lookup String.eqb Ascii.eqb Bool.eqb slice_eval opt_int as_int bin_eval]. fold announced.
  step.
  rewrite exec_block_cons, <- run_S.
  edestruct (consume_len all_tables py_program "_data" (while_body PF_gls 3) (skipn 16) 0
               (fun seen ρ => lookup "_lbas" ρ = Some (PList (map gls_desc (map (firstn 16) seen))) /\ lookup "result" ρ = Some (PDict [])))
    with (R := announced) (seen := @nil bytes) as (ρ' & -> & Hl & Hr).
  - intros R HR. apply skipn_shrinks; [exact HR|lia].
  - intros f0 R seen ρ _ Hne Hd [Hl Hr]. cbn [while_body fn_body nth PF_gls].
    step. step. rewrite Hd. cbn [slice_eval opt_int as_int]. rewrite gls_table. change 16%Z with (Z.of_nat 16). rewrite py_slice_to.
    rewrite decode_bits_total by apply gls_wf. unfold with_var. lk.
    rewrite dict_update_nil by (rewrite decoded_names by apply gls_wf; apply gls_wf).
    step. unfold with_var. lk. rewrite Hl. cbn [update_at].
    step. rewrite Hd. cbn [slice_eval opt_int as_int]. change 16%Z with (Z.of_nat 16). rewrite py_slice_from.
    rewrite exec_block_nil. eexists. repeat split; lk; [reflexivity| |exact Hr].
    rewrite !map_app. reflexivity.
  - lia.
  - lk. reflexivity.
  - split; lk; reflexivity.
  - step. unfold with_var. rewrite Hr, Hl. cbn [update_at dict_update fold_left dict_set fst snd].
    step. reflexivity.
Qed.

Theorem getlbastatus_total : forall (data : bytes) f, length data + 3 <= f ->
  let announced := py_slice data (Some 8%Z) (Some (Z.of_N (ba_to_int (py_slice data None (Some 4%Z))) + 4)%Z) in
  call_fun all_tables py_program f GLS [PBytes data] = Ok (PDict [("lbas", PList (map gls_desc (chunks (length announced) 16 announced)))]).
Proof.
  intros data f Hf announced. apply getlbastatus_run. rewrite chunks_suffixes, map_length. apply pieces_fuel. lia.
Qed.

(* GET LBA STATUS: header (8 bytes) + n descriptors of 16 bytes + anything; PARAMETER DATA LENGTH = 4 + 16 n (it counts what
   follows the field): exactly the n descriptors are decoded, each with the library's table, nothing of the trailing bytes *)
Theorem getlbastatus_exact : forall (hdr : bytes) (descs : list bytes) (trail : bytes) f,
  length hdr = 8 -> Forall (fun d => length d = 16) descs ->
  (Z.of_N (ba_to_int (firstn 4 hdr)) + 4 = Z.of_nat (8 + length (concat descs)))%Z ->
  length descs + 2 <= f ->
  call_fun all_tables py_program f GLS [PBytes (hdr ++ concat descs ++ trail)%list] =
  Ok (PDict [("lbas", PList (map gls_desc descs))]).
Proof.
  intros hdr descs trail f Hh Hall Hlen Hf.
  pose proof (getlbastatus_run (hdr ++ concat descs ++ trail)%list f) as R. cbv zeta in R.
  rewrite py_slice_firstn in R by (rewrite Hh; lia). change (Z.to_nat 4) with 4 in R.
  rewrite Hlen, (py_slice_mid hdr (concat descs) trail) in R by (rewrite ?Hh; lia).
  rewrite chunks_concat in R by (auto; lia). exact (R Hf).
Qed.

Lemma read_keys_run : forall (data : bytes) f,
  let announced := py_slice data (Some 8%Z) (Some (Z.of_N (ba_to_int (py_slice data (Some 4%Z) (Some 8%Z))) + 8)%Z) in
  length (chunks (length announced) 8 announced) + 2 <= f ->
  call_fun all_tables py_program f PRK [PBytes data] =
  Ok (PDict [("pr_generation", PInt (Z.of_N (ba_to_int (py_slice data None (Some 4%Z)))));
             ("reservation_keys", PList (map prk_key (chunks (length announced) 8 announced)))]).
Proof.
  intros data f announced Hf. rewrite chunks_suffixes in *. rewrite (@map_length bytes bytes) in Hf.
  destruct f as [|[|f]]; try lia. eapply call_with_ret; [exact prk_lookup|reflexivity|]. cbn [fn_body PF_prk].
  step. step. cbn [lookup String.eqb Ascii.eqb Bool.eqb slice_eval opt_int as_int]. unfold with_var. lk. cbn [update_at set_item].
  step. cbn [lookup String.eqb Ascii.eqb Bool.eqb slice_eval opt_int as_int].
  step. cbn [lookup String.eqb Ascii.eqb Bool.eqb slice_eval opt_int as_int bin_eval]. fold announced.
  step.
  rewrite exec_block_cons, <- run_S.
  set (res := PDict (dict_set [] "pr_generation" (PInt (Z.of_N (ba_to_int (py_slice data None (Some 4%Z))))))).
  edestruct (consume_len all_tables py_program "data" (while_body PF_prk 5) (skipn 8) 0
               (fun seen ρ => lookup "keys" ρ = Some (PList (map prk_key (map (firstn 8) seen))) /\ lookup "result" ρ = Some res))
    with (R := announced) (seen := @nil bytes) as (ρ' & -> & Hl & Hr).
  - intros R HR. apply skipn_shrinks; [exact HR|lia].
  - intros f0 R seen ρ _ Hne Hd [Hl Hr]. cbn [while_body fn_body nth PF_prk].
    step. rewrite Hd. cbn [slice_eval opt_int as_int]. change 8%Z with (Z.of_nat 8). rewrite py_slice_to.
    step. rewrite Hd. cbn [slice_eval opt_int as_int]. change 8%Z with (Z.of_nat 8). rewrite py_slice_from.
    step. unfold with_var. lk. rewrite Hl. cbn [update_at].
    rewrite exec_block_nil. eexists. repeat split; lk; [reflexivity| |exact Hr].
    rewrite !map_app. reflexivity.
  - lia.
  - lk. reflexivity.
  - split; lk; reflexivity.
  - step. rewrite Hl. unfold with_var. rewrite Hr. unfold res. cbn [update_at set_item dict_set String.eqb Ascii.eqb Bool.eqb].
    step. reflexivity.
Qed.

Theorem read_keys_total : forall (data : bytes) f, length data + 3 <= f ->
  let announced := py_slice data (Some 8%Z) (Some (Z.of_N (ba_to_int (py_slice data (Some 4%Z) (Some 8%Z))) + 8)%Z) in
  call_fun all_tables py_program f PRK [PBytes data] =
  Ok (PDict [("pr_generation", PInt (Z.of_N (ba_to_int (py_slice data None (Some 4%Z)))));
             ("reservation_keys", PList (map prk_key (chunks (length announced) 8 announced)))]).
Proof.
  intros data f Hf announced. apply read_keys_run. rewrite chunks_suffixes, map_length. apply pieces_fuel. lia.
Qed.

(* READ KEYS: header (PRGENERATION, ADDITIONAL LENGTH) + n reservation keys of 8 bytes + anything; ADDITIONAL LENGTH = 8 n *)
Theorem prin_read_keys_exact : forall (hdr : bytes) (descs : list bytes) (trail : bytes) f,
  length hdr = 8 -> Forall (fun d => length d = 8) descs ->
  Z.of_N (ba_to_int (skipn 4 hdr)) = Z.of_nat (length (concat descs)) ->
  length descs + 2 <= f ->
  call_fun all_tables py_program f PRK [PBytes (hdr ++ concat descs ++ trail)%list] =
  Ok (PDict [("pr_generation", PInt (Z.of_N (ba_to_int (firstn 4 hdr)))); ("reservation_keys", PList (map prk_key descs))]).
Proof.
  intros hdr descs trail f Hh Hall Hlen Hf.
  pose proof (read_keys_run (hdr ++ concat descs ++ trail)%list f) as R. cbv zeta in R.
  rewrite py_slice_firstn, (py_slice_tail_of_prefix hdr _ 4 8) in R by (rewrite ?Hh; lia). change (Z.to_nat 4) with 4 in R.
  rewrite Hlen, (py_slice_mid hdr (concat descs) trail) in R by (rewrite ?Hh; lia).
  rewrite chunks_concat in R by (auto; lia). exact (R Hf).
Qed.

Definition RL := "scsi_cdb_report_luns.ReportLuns.unmarshall_datain".
Notation PF_rl := PF_scsi_cdb_report_luns_ReportLuns_unmarshall_datain.
Definition T_rl := T_scsi_cdb_report_luns__ReportLuns___datain_bits.

Lemma rl_lookup : lookup RL py_program = Some PF_rl.
Proof. vm_compute. reflexivity. Qed.
Lemma rl_table : lookup "scsi_cdb_report_luns.ReportLuns._datain_bits" all_tables = Some T_rl.
Proof. vm_compute. reflexivity. Qed.
Lemma rl_wf : masks_nonzero T_rl = true /\ names_distinct (map fst T_rl) = true.
Proof. vm_compute. split; reflexivity. Qed.

(* the decimal text of a number is never empty, so "lun<N>" is never "lun" *)
Lemma z_to_string_nonempty z : z_to_string z <> "".
Proof.
  unfold z_to_string, NilZero.string_of_int. destruct (Z.to_int z) as [d|d].
  - unfold NilZero.string_of_uint. destruct d; discriminate.
  - discriminate.
Qed.

Lemma str_app_nil (s : string) : (s ++ "")%string = s.
Proof. induction s as [|c s IH]; [reflexivity|]. cbn. now rewrite IH. Qed.

(* what decode1 unfolds to on the one field of T_rl (mask 2^64 - 1 at offset 0), left as it unfolds: reportluns_run meets it by conversion *)
Definition rl_value (d : bytes) : pv := PInt (Z.of_N (N.land (N.shiftr (ba_to_int (slice d 0 (0 + nbytes 18446744073709551615))) 0) (N.shiftr 18446744073709551615 0))).
Definition rl_entry (i : nat) (d : bytes) : pv := PDict [("lun" ++ z_to_string (Z.of_nat i), rl_value d)].

Fixpoint rl_entries (i : nat) (ds : list bytes) : list pv :=
  match ds with [] => [] | d :: r => rl_entry i d :: rl_entries (S i) r end.

Lemma rl_entries_app i a b : rl_entries i (a ++ b)%list = (rl_entries i a ++ rl_entries (i + length a) b)%list.
Proof.
  revert i. induction a as [|d a IH]; intros i.
  - change (length (@nil bytes)) with 0. now rewrite Nat.add_0_r.
  - change ((d :: a) ++ b)%list with (d :: (a ++ b))%list. cbn [rl_entries]. rewrite IH. change (length (d :: a)) with (S (length a)).
    replace (S i + length a) with (i + S (length a)) by lia. reflexivity.
Qed.

Lemma reportluns_run : forall (data : bytes) f,
  let announced := py_slice data (Some 8%Z) (Some (Z.of_N (ba_to_int (py_slice data None (Some 4%Z))) + 8)%Z) in
  length (chunks (length announced) 8 announced) + 2 <= f ->
  call_fun all_tables py_program f RL [PBytes data] = Ok (PDict [("luns", PList (rl_entries 0 (chunks (length announced) 8 announced)))]).
Proof.
  intros data f announced Hf. rewrite chunks_suffixes in *. rewrite (@map_length bytes bytes) in Hf.
  destruct f as [|[|f]]; try lia. eapply call_with_ret; [exact rl_lookup|reflexivity|]. cbn [fn_body PF_rl].
  step. step. cbn [lookup String.eqb Ascii.eqb Bool.eqb slice_eval opt_int as_int bin_eval]. fold announced.
  step. step.
  rewrite exec_block_cons, <- run_S.
  edestruct (consume_len all_tables py_program "_data" (while_body PF_rl 4) (skipn 8) 0
               (fun seen ρ => lookup "_luns" ρ = Some (PList (rl_entries 0 (map (firstn 8) seen))) /\
                              lookup "_count" ρ = Some (PInt (Z.of_nat (length seen))) /\ lookup "result" ρ = Some (PDict [])))
    with (R := announced) (seen := @nil bytes) as (ρ' & -> & Hl & _ & Hr).
  - intros R HR. apply skipn_shrinks; [exact HR|lia].
  - intros f0 R seen ρ _ Hne Hd (Hl & Hc & Hr). cbn [while_body fn_body nth PF_rl].
    step. step. rewrite Hd. cbn [slice_eval opt_int as_int]. rewrite rl_table. change 8%Z with (Z.of_nat 8). rewrite py_slice_to.
    rewrite decode_bits_total by apply rl_wf. unfold with_var. lk.
    rewrite dict_update_nil by (rewrite decoded_names by apply rl_wf; apply rl_wf).
    (* the decoded dictionary has exactly the key "lun" *)
    change (dict_of_decoded (decode_total (firstn 8 R) T_rl)) with [("lun", rl_value (firstn 8 R))].
    set (x := rl_value (firstn 8 R)).
    step. rewrite Hc. cbn [fmt_eval]. rewrite str_app_nil.
    set (k := "lun" ++ z_to_string (Z.of_nat (length seen))).
    assert (Hk : String.eqb k "lun" = false) by (unfold k; pose proof (z_to_string_nonempty (Z.of_nat (length seen))); now destruct (z_to_string _)).
    step. cbn [index_eval lookup String.eqb Ascii.eqb Bool.eqb]. unfold with_var. lk. cbn [update_at set_item dict_set]. rewrite Hk.
    rewrite exec_block_cons, exec_if. cbn [eval]. lk. cbn [cmp_eval py_eq]. rewrite Hk. cbn [truthy].
    step. unfold with_var. lk. cbn [lookup String.eqb Ascii.eqb Bool.eqb dict_remove]. rewrite exec_block_nil.
    step. unfold with_var. lk. rewrite Hl. cbn [update_at].
    step. rewrite Hd. cbn [slice_eval opt_int as_int]. change 8%Z with (Z.of_nat 8). rewrite py_slice_from.
    step. rewrite Hc. cbn [bin_eval as_int].
    rewrite exec_block_nil. eexists. repeat split; lk; [reflexivity| | |exact Hr].
    + rewrite map_app, rl_entries_app, map_length. reflexivity.
    + rewrite app_length. cbn [length]. do 2 f_equal. lia.
  - lia.
  - lk. reflexivity.
  - repeat split; lk; reflexivity.
  - step. unfold with_var. rewrite Hr, Hl. cbn [update_at dict_update fold_left dict_set fst snd].
    step. reflexivity.
Qed.

Theorem reportluns_total : forall (data : bytes) f, length data + 3 <= f ->
  let announced := py_slice data (Some 8%Z) (Some (Z.of_N (ba_to_int (py_slice data None (Some 4%Z))) + 8)%Z) in
  call_fun all_tables py_program f RL [PBytes data] = Ok (PDict [("luns", PList (rl_entries 0 (chunks (length announced) 8 announced)))]).
Proof.
  intros data f Hf announced. apply reportluns_run. rewrite chunks_suffixes, map_length. apply pieces_fuel. lia.
Qed.

(* ---------------------------------------------------------------- plain table decoders, every input *)
Definition plain_body (tname : string) : list st :=
  [SAssign "result" (EDict []); SDecode (EVar "data") tname "result"; SReturn (EVar "result")].

Theorem plain_decoder_total : forall (name tname : string) (F : fundef) (T : layout),
  lookup name py_program = Some F -> fn_params F = [("data", None)] -> fn_body F = plain_body tname ->
  lookup tname all_tables = Some T -> masks_nonzero T = true -> names_distinct (map fst T) = true ->
  forall (data : bytes) f, 1 <= f ->
  call_fun all_tables py_program f name [PBytes data] = Ok (PDict (dict_of_decoded (decode_total data T))).
Proof.
  intros name tname F T HF Hp Hb HT Hm Hd data f Hf. destruct f as [|f]; [lia|].
  eapply call_with_ret; [exact HF|rewrite Hp; reflexivity|]. rewrite Hb. unfold plain_body.
  step. step. cbn [lookup String.eqb Ascii.eqb Bool.eqb]. rewrite HT. rewrite decode_bits_total by exact Hm. unfold with_var. lk.
  rewrite dict_update_nil by (rewrite decoded_names by exact Hm; exact Hd).
  step. reflexivity.
Qed.

Definition T_rc10 := T_scsi_cdb_readcapacity10__ReadCapacity10___datain_bits.
Definition T_rc16 := T_scsi_cdb_readcapacity16__ReadCapacity16___datain_bits.

Theorem readcapacity10_total : forall (data : bytes) f, 1 <= f ->
  call_fun all_tables py_program f "scsi_cdb_readcapacity10.ReadCapacity10.unmarshall_datain" [PBytes data]
  = Ok (PDict (dict_of_decoded (decode_total data T_rc10))).
Proof.
  apply (plain_decoder_total _ "scsi_cdb_readcapacity10.ReadCapacity10._datain_bits" PF_scsi_cdb_readcapacity10_ReadCapacity10_unmarshall_datain);
    vm_compute; reflexivity.
Qed.

Theorem readcapacity16_total : forall (data : bytes) f, 1 <= f ->
  call_fun all_tables py_program f "scsi_cdb_readcapacity16.ReadCapacity16.unmarshall_datain" [PBytes data]
  = Ok (PDict (dict_of_decoded (decode_total data T_rc16))).
Proof.
  apply (plain_decoder_total _ "scsi_cdb_readcapacity16.ReadCapacity16._datain_bits" PF_scsi_cdb_readcapacity16_ReadCapacity16_unmarshall_datain);
    vm_compute; reflexivity.
Qed.
