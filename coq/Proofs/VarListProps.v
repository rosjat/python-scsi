(* Proofs/VarListProps.v — a list of self-describing descriptors is walked exactly: every descriptor whose own
   length field is honest is returned whole and in order, for every number of descriptors and every content. *)
From PS Require Import Base.Bytes Model.VarList.
Open Scope N_scope.

Lemma firstn_app_exact {A} (d rest : list A) : firstn (length d) (d ++ rest) = d.
Proof. rewrite firstn_app, Nat.sub_diag, firstn_all. apply app_nil_r. Qed.

Lemma skipn_app_exact {A} (d rest : list A) : skipn (length d) (d ++ rest) = rest.
Proof. now rewrite skipn_app, skipn_all, Nat.sub_diag. Qed.

Lemma slice_app_prefix (d rest : bytes) a b : (b <= length d)%nat -> slice (d ++ rest)%list a b = slice d a b.
Proof.
  intros H. unfold slice. rewrite skipn_app, firstn_app, skipn_length.
  replace (b - a - (length d - a))%nat with 0%nat by lia. cbn [firstn]. now rewrite app_nil_r.
Qed.

Lemma concat_length stride (descs : list bytes) :
  Forall (fun d => length d = stride) descs -> length (concat descs) = (stride * length descs)%nat.
Proof. intros H. induction H as [|d ds Hd _ IH]; [cbn; lia|]. cbn [concat length]. rewrite app_length, IH, Hd. lia. Qed.

(* a well-formed descriptor: long enough to hold its length field, and as long as that field (plus the fixed part) says *)
Definition desc_ok (p : vparams) (d : bytes) : Prop :=
  (vp_b p <= length d)%nat /\ (0 < length d)%nat /\
  N.of_nat (length d) = N.of_nat (vp_fixed p) + ba_to_int (slice d (vp_a p) (vp_b p)).

Lemma desc_len_head p (d rest : bytes) : desc_ok p d -> desc_len p (d ++ rest)%list = length d.
Proof.
  intros (Hb & _ & Hl). unfold desc_len. rewrite slice_app_prefix by assumption. rewrite <- Hl, app_length. lia.
Qed.

Theorem vchunks_exact p (descs : list bytes) :
  Forall (desc_ok p) descs ->
  forall fuel, (length descs <= fuel)%nat -> vchunks p fuel (concat descs) = Some descs.
Proof.
  intros H. induction H as [|d ds Hd Hds IH]; intros fuel Hf; [destruct fuel; reflexivity|].
  cbn [concat]. destruct fuel as [|fuel]; [cbn in Hf; lia|].
  assert (Hne : (d ++ concat ds)%list <> []).
  { destruct Hd as (_ & Hp & _). destruct d; [cbn in Hp; lia|discriminate]. }
  assert (Hstep : vchunks p (S fuel) (d ++ concat ds)%list =
                  match vchunks p fuel (skipn (desc_len p (d ++ concat ds)%list) (d ++ concat ds)%list) with
                  | Some cs => Some (firstn (desc_len p (d ++ concat ds)%list) (d ++ concat ds)%list :: cs)
                  | None => None end).
  { destruct (d ++ concat ds)%list; [contradiction|reflexivity]. }
  rewrite Hstep, (desc_len_head p d (concat ds) Hd).
  now rewrite skipn_app_exact, firstn_app_exact, IH by (cbn [length] in Hf; lia).
Qed.
