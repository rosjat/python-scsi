(* Proofs/SenseProps.v — totality and positions of sense decoding, for EVERY byte string; the T10 texts. *)
From Coq Require Import String.
From PS Require Import Model.SenseStep.
From PS Require Import Base.Bytes Base.Result Model.Converter Model.Sense.
From PS Require Import Proofs.Codec Proofs.Layout Proofs.ParserProps Gen.SenseTables Gen.Misc Spec.SenseFmt.
Open Scope string_scope.
Open Scope N_scope.

Lemma decode_bits_mask s L d k m o : decode_bits s L = Ok d -> lookup k L = Some (Mask m o) ->
  exists x, decode1 s (Mask m o) = Ok (VI x) /\ lookup k d = Some (VI x).
Proof.
  intros Hd Hk. destruct (decode_bits_lookup _ _ _ _ _ Hd Hk) as (v & Dv & Hv).
  unfold decode1 in *. destruct (ctz m); inversion Dv; subst v; eauto.
Qed.

(* a single-byte mask field is read from one byte of the buffer; an absent byte reads as 0 *)
Lemma slice_one s o : slice s o (o + 1) = match nth_error s o with Some x => [x] | None => [] end.
Proof.
  unfold slice. replace (o + 1 - o)%nat with 1%nat by lia.
  revert s; induction o as [|o IH]; intros [|x s]; cbn [skipn firstn nth_error]; try reflexivity. apply IH.
Qed.

Lemma decode1_byte s m o z : m < 256 -> ctz m = Some z ->
  decode1 s (Mask m o) = Ok (VI (N.land (N.shiftr (nth (N.to_nat o) s 0) z) (N.shiftr m z))).
Proof.
  intros Hm Hz. cbn [decode1]. rewrite Hz.
  assert (Hn : nbytes m = 1%nat) by (rewrite nbytes_step; destruct (N.leb_spec m 255); [reflexivity|lia]).
  rewrite Hn, slice_one. do 3 f_equal.
  destruct (nth_error s (N.to_nat o)) as [x|] eqn:E.
  - rewrite (nth_error_nth s (N.to_nat o) 0 E). cbn [ba_to_int length]. change (N.of_nat 0) with 0. rewrite N.pow_0_r. f_equal. lia.
  - rewrite nth_overflow by (now apply nth_error_None). reflexivity.
Qed.

(* ---------- the decidable side conditions on the regenerated sense code ---------- *)

Definition dispatch_entry_ok (d : list N * layout * string * string) : bool :=
  let '(codes, L, ak, qk) := d in
  masks_nonzero L && nodupb (map fst L)
  && match lookup ak L, lookup qk L, lookup "sense_key" L with
     | Some (Mask _ _), Some (Mask _ _), Some (Mask _ _) => true | _, _, _ => false end.

(* a buffer whose response code has a dispatch entry: the three masks are read off the buffer, ASC and ASCQ become
   attributes of the error, the sense key an entry of its data *)
Lemma sense_new_entry b0 s' cs L ak qk ma oa mq oq mk ok : let s := b0 :: s' in
  find (handles (N.land b0 127)) sense_dispatch = Some (cs, L, ak, qk) -> masks_nonzero L = true ->
  lookup ak L = Some (Mask ma oa) -> lookup qk L = Some (Mask mq oq) -> lookup "sense_key" L = Some (Mask mk ok) ->
  exists d a q k, decode1 s (Mask ma oa) = Ok (VI a) /\ decode1 s (Mask mq oq) = Ok (VI q) /\ decode1 s (Mask mk ok) = Ok (VI k) /\
    sense_new s = Ok (mkCC (N.land b0 127) d (Some a) (Some q)) /\ lookup "sense_key" d = Some (VI k).
Proof.
  intros s Ef Htot La Lq Lk. unfold sense_new, s. rewrite Ef. fold s.
  destruct (decode_bits_total s L Htot) as [d Hd]. rewrite Hd.
  destruct (decode_bits_mask _ _ _ _ _ _ Hd La) as (a & Da & Hva).
  destruct (decode_bits_mask _ _ _ _ _ _ Hd Lq) as (q & Dq & Hvq).
  destruct (decode_bits_mask _ _ _ _ _ _ Hd Lk) as (k & Dk & Hvk).
  rewrite Hva, Hvq. now exists d, a, q, k.
Qed.

(* the regenerated steps of _describe_ascq end in a text for every code: a step that always answers (a default, a plain text) is
   reached before any strict lookup and before the end of the function *)
Fixpoint steps_total (steps : list ascq_step) : bool :=
  match steps with
  | [] => false
  | AGetDefault _ :: _ | AText _ :: _ => true
  | AStrict :: _ | AUnknownStep :: _ => false
  | _ :: r => steps_total r
  end.

Lemma steps_total_ok steps a q : steps_total steps = true -> exists t, describe_steps steps a q = Ok t.
Proof.
  induction steps as [|s r IH]; [discriminate|]. destruct s; cbn [steps_total describe_steps]; intros H; try discriminate; eauto.
  - destruct (lookupN (a * 256 + q) sense_ascq_dict); eauto.
  - destruct (in_range vendor_specific_sense_asc a); eauto.
  - destruct (in_range vendor_specific_sense_ascq q); eauto.
Qed.

(* construction and description never raise *)
Definition sense_total_ok : bool :=
  forallb dispatch_entry_ok sense_dispatch && sense_str_guard && steps_total sense_ascq_steps
  && match sense_key_default, sense_init_asc, sense_init_ascq with
     | Some _, Some _, Some _ => true | _, _, _ => false end.

Theorem sense_total : sense_total_ok = true ->
  forall s, s <> [] -> exists c d, sense_new s = Ok c /\ describe c = Ok d.
Proof.
  unfold sense_total_ok. intros H s Hs. apply andb_prop in H as [H Hdef]. apply andb_prop in H as [H Hsteps]. apply andb_prop in H as [Hdisp Hguard].
  destruct sense_key_default as [kd|] eqn:Ekd; [|discriminate].
  destruct s as [|b0 s']; [congruence|].
  destruct (find (handles (N.land b0 127)) sense_dispatch) as [[[[codes L] ak] qk]|] eqn:Ef.
  - pose proof (proj1 (find_some _ _ Ef)) as Hin. rewrite forallb_forall in Hdisp. specialize (Hdisp _ Hin).
    cbn [dispatch_entry_ok] in Hdisp. apply andb_prop in Hdisp as [Hd Hkeys]. apply andb_prop in Hd as [Htot _].
    destruct (lookup ak L) as [[ma oa|]|] eqn:La; try discriminate Hkeys.
    destruct (lookup qk L) as [[mq oq|]|] eqn:Lq; try discriminate Hkeys.
    destruct (lookup "sense_key" L) as [[mk ok|]|] eqn:Lk; try discriminate Hkeys.
    destruct (sense_new_entry b0 s' _ _ _ _ _ _ _ _ _ _ Ef Htot La Lq Lk) as (d & a & q & k & _ & _ & _ & Hnew & Hvk).
    exists (mkCC (N.land b0 127) d (Some a) (Some q)). rewrite Hnew. unfold describe, describe_ascq. cbn [cc_data cc_asc cc_ascq cc_rc]. rewrite Hvk, Ekd.
    destruct (steps_total_ok sense_ascq_steps a q Hsteps) as [t ->].
    destruct (lookupN k sense_key_dict); eauto.
  - unfold sense_new. rewrite Ef. eexists. eexists. split; [reflexivity|].
    unfold describe. cbn [cc_data lookup]. now rewrite Hguard.
Qed.

(* ---------- positions ---------- *)

(* the regenerated dispatch decodes each format with a table whose SENSE KEY / ASC / ASCQ entries are one-byte
   masks at the standard's positions *)
Definition entry_positions_ok (sp : list N * N * N * N) : bool :=
  let '(codes, kb, ab, qb) := sp in
  forallb (fun rc =>
    match find (handles rc) sense_dispatch with
    | Some (_, L, ak, qk) =>
        match lookup "sense_key" L, lookup ak L, lookup qk L with
        | Some (Mask mk o1), Some (Mask ma o2), Some (Mask mq o3) =>
            (mk =? 15) && (ma =? 255) && (mq =? 255) && (o1 =? kb) && (o2 =? ab) && (o3 =? qb)
        | _, _, _ => false
        end
    | None => false
    end) codes.
Definition sense_positions_ok : bool := forallb entry_positions_ok sense_positions && forallb dispatch_entry_ok sense_dispatch.

Theorem sense_positions_sound : sense_positions_ok = true ->
  forall codes kb ab qb, In (codes, kb, ab, qb) sense_positions ->
  forall b0 s', In (N.land b0 127) codes ->
  exists c, sense_new (b0 :: s') = Ok c /\
    lookup "sense_key" (cc_data c) = Some (VI (N.land (nth (N.to_nat kb) (b0 :: s') 0) 15)) /\
    cc_asc c = Some (nth (N.to_nat ab) (b0 :: s') 0 mod 256) /\
    cc_ascq c = Some (nth (N.to_nat qb) (b0 :: s') 0 mod 256).
Proof.
  unfold sense_positions_ok. intros H codes kb ab qb Hin b0 s' Hrc. apply andb_prop in H as [Hpos Hdisp].
  rewrite forallb_forall in Hpos. specialize (Hpos _ Hin). cbn [entry_positions_ok] in Hpos.
  rewrite forallb_forall in Hpos. specialize (Hpos _ Hrc).
  destruct (find (handles (N.land b0 127)) sense_dispatch) as [[[[cs L] ak] qk]|] eqn:Ef; [|discriminate].
  pose proof (proj1 (find_some _ _ Ef)) as HinD. rewrite forallb_forall in Hdisp. specialize (Hdisp _ HinD).
  cbn [dispatch_entry_ok] in Hdisp. apply andb_prop in Hdisp as [Hd _]. apply andb_prop in Hd as [Htot _].
  destruct (lookup "sense_key" L) as [[mk o1|]|] eqn:Lk; try discriminate Hpos.
  destruct (lookup ak L) as [[ma o2|]|] eqn:La; try discriminate Hpos.
  destruct (lookup qk L) as [[mq o3|]|] eqn:Lq; try discriminate Hpos.
  rewrite !andb_true_iff, !N.eqb_eq in Hpos. destruct Hpos as (((((-> & ->) & ->) & ->) & ->) & ->).
  destruct (sense_new_entry b0 s' _ _ _ _ _ _ _ _ _ _ Ef Htot La Lq Lk) as (d & a & q & k & Da & Dq & Dk & Hnew & Hvk).
  rewrite (decode1_byte _ 255 ab 0 ltac:(lia) eq_refl) in Da. injection Da as <-.
  rewrite (decode1_byte _ 255 qb 0 ltac:(lia) eq_refl) in Dq. injection Dq as <-.
  rewrite (decode1_byte _ 15 kb 0 ltac:(lia) eq_refl) in Dk. injection Dk as <-.
  eexists. split; [exact Hnew|]. cbn [cc_data cc_asc cc_ascq].
  rewrite Hvk. rewrite !N.shiftr_0_r.
  change 255 with (N.ones 8). rewrite !N.land_ones. change (2 ^ 8) with 256.
  repeat split; reflexivity.
Qed.

(* ---------- texts (compared without regard to letter case: T10's list is upper case) ---------- *)
Definition upper_ascii (c : Ascii.ascii) : Ascii.ascii :=
  let n := Ascii.N_of_ascii c in if (97 <=? n) && (n <=? 122) then Ascii.ascii_of_N (n - 32) else c.
Fixpoint upper (s : string) : string :=
  match s with EmptyString => EmptyString | String c s' => String (upper_ascii c) (upper s') end.
Definition texts_ok : bool :=
  forallb (fun e : N * string => match lookupN (fst e) sense_ascq_dict with
                                 | Some t => String.eqb (upper t) (upper (snd e)) | None => false end) t10_asc_subset.

Lemma texts_sound : texts_ok = true -> forall code text, In (code, text) t10_asc_subset ->
  exists t, lookupN code sense_ascq_dict = Some t /\ upper t = upper text.
Proof.
  unfold texts_ok. intros H code text Hin. rewrite forallb_forall in H. specialize (H _ Hin). cbn [fst snd] in H.
  destruct (lookupN code sense_ascq_dict) as [t|]; [|discriminate]. apply String.eqb_eq in H. eauto.
Qed.

(* an assigned code is DESCRIBED by its T10 text (the regenerated steps of _describe_ascq reach the table before anything else answers) *)
Definition described_ok : bool :=
  forallb (fun e : N * string => match describe_ascq (fst e / 256) (fst e mod 256) with
                                 | Ok t => String.eqb (upper t) (upper (snd e)) | Raise _ => false end) t10_asc_subset.

Lemma described_sound : described_ok = true -> forall code text, In (code, text) t10_asc_subset ->
  exists t, describe_ascq (code / 256) (code mod 256) = Ok t /\ upper t = upper text.
Proof.
  unfold described_ok. intros H code text Hin. rewrite forallb_forall in H. specialize (H _ Hin). cbn [fst snd] in H.
  destruct (describe_ascq (code / 256) (code mod 256)) as [t|]; [|discriminate]. apply String.eqb_eq in H. eauto.
Qed.
