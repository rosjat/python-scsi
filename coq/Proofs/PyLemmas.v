(* Proofs/PyLemmas.v — what the proofs about programs of the small Python (Model/Py.v) share.  In this order: `run` / `exec` unfolded one
   statement at a time (`step`), entering a function, the branch an `if x == k` cascade takes; values (slices of concatenations, stores
   into slices, Z integers that are N numbers); dictionaries; decoding with a table whose masks are non-zero; the rule for `while`
   loops that consume a buffer (`suffixes`, `consume`, `consume_len`, and what the remainders are on a buffer of conformant
   descriptors); `for` loops. *)
From Coq Require Import String ZArith.
From PS Require Import Base.Bytes Base.Result Model.Converter Model.Py Proofs.VarListProps.
From PS Require Export Proofs.Dict.
Open Scope string_scope.
Open Scope nat_scope.

(* ------------------------------------------------------------------ run / exec, one statement at a time *)

Lemma run_S T P f s ρ : run T P (S f) s ρ = exec T (call_with P (run T P f)) (run T P f) s ρ.
Proof. reflexivity. Qed.

Lemma exec_if T call again c a b ρ :
  exec T call again (SIf c a b) ρ =
  match eval call ρ c with
  | Raise x => OExn x
  | Ok v => exec_block T call again (if truthy v then a else b) ρ
  end.
Proof. reflexivity. Qed.

Lemma exec_while T call again c body ρ :
  exec T call again (SWhile c body) ρ =
  match eval call ρ c with
  | Raise x => OExn x
  | Ok v => if truthy v then match exec_block T call again body ρ with
                             | ONorm ρ' => again (SWhile c body) ρ'
                             | o => o
                             end
            else ONorm ρ
  end.
Proof. reflexivity. Qed.

Fixpoint for_iter T call again (x : string) (body : list st) (items : list pv) (ρ : env) : outcome :=
  match items with
  | [] => ONorm ρ
  | i :: rest => match exec_block T call again body (dict_set ρ x i) with
                 | ONorm ρ' => for_iter T call again x body rest ρ'
                 | o => o
                 end
  end.

Lemma exec_for T call again x e body ρ :
  exec T call again (SFor x e body) ρ =
  match eval call ρ e with
  | Raise x => OExn x
  | Ok v => match iter_items v with
            | Raise x => OExn x
            | Ok items => for_iter T call again x body items ρ
            end
  end.
Proof.
  cbn [exec]. destruct (eval call ρ e) as [v|]; [|reflexivity]. destruct (iter_items v) as [items|]; [|reflexivity].
  revert ρ. induction items as [|i rest IH]; intros ρ; [reflexivity|].
  (* exec runs a loop body with a local `fix block` of its own (exec_block is defined after exec); the two are convertible *)
  cbn [for_iter]. change (exec_block T call again body (dict_set ρ x i)) with
    ((fix block (l : list st) (ρ0 : env) {struct l} : outcome :=
        match l with
        | [] => ONorm ρ0
        | s' :: r => match exec T call again s' ρ0 with ONorm ρ' => block r ρ' | o => o end
        end) body (dict_set ρ x i)).
  destruct ((fix block (l : list st) (ρ0 : env) {struct l} : outcome :=
        match l with
        | [] => ONorm ρ0
        | s' :: r => match exec T call again s' ρ0 with ONorm ρ' => block r ρ' | o => o end
        end) body (dict_set ρ x i)); try reflexivity. apply IH.
Qed.

Lemma exec_block_cons T call again s r ρ :
  exec_block T call again (s :: r) ρ = match exec T call again s ρ with ONorm ρ' => exec_block T call again r ρ' | o => o end.
Proof. reflexivity. Qed.

Lemma exec_block_nil T call again ρ : exec_block T call again [] ρ = ONorm ρ.
Proof. reflexivity. Qed.

Lemma exec_block_one T call again s ρ : exec_block T call again [s] ρ = exec T call again s ρ.
Proof. cbn [exec_block]. now destruct (exec T call again s ρ). Qed.

Lemma exec_block_app T call again a b ρ :
  exec_block T call again (a ++ b) ρ = match exec_block T call again a ρ with ONorm ρ' => exec_block T call again b ρ' | o => o end.
Proof. revert ρ. induction a as [|s a IH]; intros ρ; [reflexivity|]. cbn [app exec_block]. destruct (exec T call again s ρ); auto. Qed.

(* symbolic execution of one statement: unfold the interpreter on it, then resolve the look-ups of the variables just set *)
Ltac lk := repeat (rewrite lookup_set_same || rewrite lookup_set_other by (let H := fresh in intro H; discriminate H)).

Ltac step := rewrite exec_block_cons; cbn [exec exec_simple eval eval_list eval_opt]; lk.

(* the same on an environment whose shape is known (before the first loop) *)
Ltac cstep := rewrite exec_block_cons;
  cbn [exec exec_simple eval eval_list eval_opt lookup dict_set with_var String.eqb Ascii.eqb Bool.eqb slice_eval opt_int as_int bin_eval update_at set_item index_eval].

(* entering a function: its body runs in the environment of its parameters *)
Lemma call_with_ret T P f name F args ρ v :
  lookup name P = Some F -> bind_params (fn_params F) args = Ok ρ ->
  exec_block T (call_with P (run T P f)) (run T P f) (fn_body F) ρ = ORet v ->
  call_with P (run T P (S f)) name args = Ok v.
Proof. intros HF Hb He. unfold call_with. rewrite HF, Hb, run_S, exec_if. cbn [eval truthy]. now rewrite He. Qed.

Lemma eval_comp {A} call ρ body x it v (l : list A) (h g : A -> pv) :
  eval call ρ it = Ok v -> iter_items v = Ok (map h l) ->
  (forall a, In a l -> eval call (dict_set ρ x (h a)) body = Ok (g a)) ->
  eval call ρ (EComp body x it) = Ok (PList (map g l)).
Proof.
  intros Hit Hitems Hbody. cbn [eval]. rewrite Hit, Hitems. clear Hit Hitems.
  match goal with |- match ?X with _ => _ end = _ => enough (E : X = Ok (map g l)) by now rewrite E end.
  induction l as [|a l IH]; [reflexivity|]. cbn [map].
  rewrite (Hbody a (or_introl eq_refl)), IH; [reflexivity|]. intros a0 H0. apply Hbody. now right.
Qed.

(* `if x == k1: .. elif x == k2: .. else: ..` with x = p: the branch taken *)
Definition eq_test (x : string) (c : ex) : option Z :=
  match c with
  | ECmp CEq (EVar y) (EConst (PInt k)) => if String.eqb y x then Some k else None
  | _ => None
  end.

Fixpoint chain_branch (x : string) (p : Z) (s : st) : list st :=
  match s with
  | SIf c a b => match eq_test x c with
                 | Some k => if Z.eqb p k then a else match b with [s'] => chain_branch x p s' | _ => b end
                 | None => [s]
                 end
  | _ => [s]
  end.

Lemma eq_test_eval call y c k ρ p : eq_test y c = Some k -> lookup y ρ = Some (PInt p) -> eval call ρ c = Ok (PBool (Z.eqb p k)).
Proof.
  destruct c; try discriminate. destruct o; try discriminate. destruct c1; try discriminate. destruct c2; try discriminate.
  destruct v; try discriminate.
  cbn [eq_test]. destruct (String.eqb_spec x y) as [->|]; [|discriminate]. intros [= ->] Hy. cbn [eval]. now rewrite Hy.
Qed.

Lemma exec_chain T call again x p ρ : lookup x ρ = Some (PInt p) -> forall s rest,
  exec_block T call again (s :: rest) ρ = exec_block T call again (chain_branch x p s ++ rest) ρ.
Proof.
  intros Hx. fix IH 1. intros s rest. destruct s; try reflexivity. cbn [chain_branch].
  destruct (eq_test x c) as [k|] eqn:E; [|reflexivity].
  rewrite exec_block_cons, exec_if, (eq_test_eval call x c k ρ p E Hx). cbn [truthy]. rewrite <- exec_block_app.
  destruct (Z.eqb p k); [reflexivity|]. destruct b as [|s' [|]]; try reflexivity. apply IH.
Qed.

(* ------------------------------------------------------------------ values: lists, indices, slices, byte strings, integers *)

Lemma skipn_app_len {A} (a b : list A) n : length a = n -> skipn n (a ++ b) = b.
Proof. intros <-. apply skipn_app_exact. Qed.

Lemma firstn_skipn_app {A} n a (d rest : list A) : a + n <= length d -> firstn n (skipn a (d ++ rest)) = firstn n (skipn a d).
Proof.
  intros H. rewrite skipn_app, firstn_app, skipn_length. replace (a - length d) with 0 by lia. replace (n - (length d - a)) with 0 by lia.
  cbn [skipn firstn]. apply app_nil_r.
Qed.

Lemma skipn_repeat' {A} (x : A) n m : skipn n (repeat x m) = repeat x (m - n).
Proof. revert n. induction m as [|m IH]; intros [|n]; try reflexivity. cbn [repeat skipn Nat.sub]. apply IH. Qed.

Lemma firstn_min {A} n (l : list A) : firstn (Nat.min n (length l)) l = firstn n l.
Proof.
  destruct (Nat.le_gt_cases n (length l)); [now rewrite Nat.min_l|].
  rewrite Nat.min_r, firstn_all, firstn_all2 by lia. reflexivity.
Qed.

Lemma skipn_min {A} n (l : list A) : skipn (Nat.min n (length l)) l = skipn n l.
Proof.
  destruct (Nat.le_gt_cases n (length l)); [now rewrite Nat.min_l|].
  rewrite Nat.min_r, skipn_all, skipn_all2 by lia. reflexivity.
Qed.

Lemma norm_index_in len (z : Z) : (0 <= z < Z.of_nat len)%Z -> norm_index len z = Some (Z.to_nat z).
Proof. intros H. unfold norm_index. destruct (Z.leb_spec 0 z); [|lia]. destruct (Z.ltb_spec z (Z.of_nat len)); [|lia]. reflexivity. Qed.

Lemma clip_in len (i : Z) : (0 <= i <= Z.of_nat len)%Z -> clip len i = Z.to_nat i.
Proof. intros H. unfold clip. destruct (Z.ltb_spec i 0); [lia|]. rewrite Z.min_l by lia. reflexivity. Qed.

Lemma clip_over len (i : Z) : (Z.of_nat len <= i)%Z -> clip len i = len.
Proof. intros H. unfold clip. destruct (Z.ltb_spec i 0); [lia|]. rewrite Z.min_r by lia. apply Nat2Z.id. Qed.

Lemma clip_N len (a : N) : clip len (Z.of_N a) = Nat.min (N.to_nat a) len.
Proof. unfold clip. destruct (Z.ltb_spec (Z.of_N a) 0); lia. Qed.

(* a field of the record at the head of a buffer *)
Lemma py_slice_field {A} (tid rest : list A) za zb (a n : nat) : za = Z.of_nat a -> zb = Z.of_nat (a + n) -> a + n <= length tid ->
  py_slice (tid ++ rest)%list (Some za) (Some zb) = firstn n (skipn a tid).
Proof.
  intros -> -> H. unfold py_slice. rewrite !clip_in by (rewrite app_length; lia). rewrite !Nat2Z.id.
  replace (a + n - a) with n by lia. now apply firstn_skipn_app.
Qed.

Lemma py_slice_from0 {A} (l : list A) (k : option Z) : py_slice l (Some 0%Z) k = py_slice l None k.
Proof. unfold py_slice. rewrite clip_in by lia. reflexivity. Qed.

Lemma py_slice_firstn {A} (a b : list A) (n : Z) : (0 <= n <= Z.of_nat (length a))%Z ->
  py_slice (a ++ b) None (Some n) = firstn (Z.to_nat n) a.
Proof.
  intros H. now rewrite <- py_slice_from0, (py_slice_field a b _ _ 0 (Z.to_nat n)) by lia.
Qed.

Lemma py_slice_prefix {A} (a b : list A) (n : Z) : Z.of_nat (length a) = n -> py_slice (a ++ b) None (Some n) = a.
Proof.
  intros H. rewrite py_slice_firstn by lia. apply firstn_all2. lia.
Qed.

Lemma py_slice_suffix {A} (a b : list A) (n : Z) : Z.of_nat (length a) = n -> py_slice (a ++ b) (Some n) None = b.
Proof.
  intros H. unfold py_slice. rewrite clip_in by (rewrite app_length; lia). apply skipn_app_len. lia.
Qed.

Lemma py_slice_mid {A} (a b c : list A) (n k : Z) :
  Z.of_nat (length a) = n -> Z.of_nat (length a + length b) = k -> py_slice (a ++ b ++ c) (Some n) (Some k) = b.
Proof.
  intros Hn Hk. rewrite app_assoc, (py_slice_field (a ++ b) c _ _ (length a) (length b)) by (rewrite ?app_length; lia).
  rewrite (skipn_app_len a b _ eq_refl). apply firstn_all.
Qed.

(* the upper bound may also lie beyond the end: python clips it *)
Lemma py_slice_mid_over {A} (a b : list A) (n k : Z) :
  Z.of_nat (length a) = n -> (Z.of_nat (length a + length b) <= k)%Z -> py_slice (a ++ b) (Some n) (Some k) = b.
Proof.
  intros Hn Hk. unfold py_slice. rewrite (clip_in _ n) by (rewrite !app_length; lia). rewrite (clip_over _ k) by (rewrite !app_length; lia).
  replace (Z.to_nat n) with (length a) by lia. rewrite app_length. replace (length a + length b - length a)%nat with (length b) by lia.
  rewrite skipn_app, skipn_all, Nat.sub_diag. cbn [skipn app]. apply firstn_all.
Qed.

Lemma py_slice_tail_of_prefix {A} (a b : list A) (n k : Z) : Z.of_nat (length a) = k -> (0 <= n <= k)%Z ->
  py_slice (a ++ b) (Some n) (Some k) = skipn (Z.to_nat n) a.
Proof.
  intros Hk Hn. rewrite (py_slice_field a b _ _ (Z.to_nat n) (length a - Z.to_nat n)) by lia.
  apply firstn_all2. rewrite skipn_length. lia.
Qed.

(* with a bound on one side only no hypothesis is needed: python clips *)
Lemma py_slice_to {A} (l : list A) (k : nat) : py_slice l None (Some (Z.of_nat k)) = firstn k l.
Proof.
  unfold py_slice. rewrite <- nat_N_Z, clip_N, Nat2N.id, Nat.sub_0_r. apply firstn_min.
Qed.

Lemma py_slice_from {A} (l : list A) (k : nat) : py_slice l (Some (Z.of_nat k)) None = skipn k l.
Proof.
  unfold py_slice. rewrite <- nat_N_Z, clip_N, Nat2N.id. apply skipn_min.
Qed.

Lemma py_slice_length_le {A} (l : list A) lo hi : length (py_slice l lo hi) <= length l.
Proof. unfold py_slice. destruct hi; rewrite ?firstn_length, skipn_length; lia. Qed.

(* Python's integers that are natural numbers: the lemmas below take the integer as it stands in the program and the number it is.
   Beyond 1048576 (bytearray size, shift distance) Model/Py.v answers `unmodelled`; at 4096 its int_to_ba_z clamps the width. *)
Lemma bytearray_zeros z n : z = Z.of_nat n -> (z <= 1048576)%Z -> bytearray_eval (PInt z) = Ok (PBytes (zeros n)).
Proof.
  intros -> H. cbn [bytearray_eval as_int]. destruct (Z.ltb_spec (Z.of_nat n) 0); [lia|]. destruct (Z.ltb_spec 1048576 (Z.of_nat n)); [lia|].
  now rewrite Nat2Z.id.
Qed.

(* the two bytes of a 2-byte field get names, so that a list built around them computes *)
Lemma int_to_ba_2 v : exists a b, int_to_ba v 2 = [a; b].
Proof. eexists; eexists; reflexivity. Qed.

Lemma int_to_ba_z_nat z k (v n : nat) : z = Z.of_nat v -> k = Z.of_nat n -> (k <= 4096)%Z -> int_to_ba_z z k = int_to_ba (N.of_nat v) n.
Proof. intros -> -> Hn. unfold int_to_ba_z. destruct (Z.leb_spec 0 (Z.of_nat v)); [|lia]. f_equal; lia. Qed.

(* x[a:b] = v and x[:b] = v on byte strings, the bounds inside *)
Lemma store_slice_mid (l x : bytes) za zb (a b : nat) : za = Z.of_nat a -> zb = Z.of_nat b -> a <= b <= length l ->
  store_slice (PBytes l) (Some (PInt za)) (Some (PInt zb)) (PBytes x) = Ok (PBytes (firstn a l ++ x ++ skipn b l)%list).
Proof.
  intros -> -> H. unfold store_slice. cbn [opt_int as_int]. rewrite !clip_in, !Nat2Z.id by lia. now rewrite Nat.max_r by lia.
Qed.

Lemma store_slice_to (l x : bytes) zb (b : nat) : zb = Z.of_nat b -> b <= length l ->
  store_slice (PBytes l) None (Some (PInt zb)) (PBytes x) = Ok (PBytes (x ++ skipn b l)%list).
Proof. intros -> H. unfold store_slice. cbn [opt_int as_int]. rewrite clip_in, Nat2Z.id by lia. reflexivity. Qed.

(* x[:4] = scsi_int_to_ba(len(x) - c, 4); return x *)
Lemma exec_store_len_ret T call again x zc (c : nat) (r : bytes) ρ :
  zc = Z.of_nat c -> lookup x ρ = Some (PBytes r) -> 4 <= length r -> c <= length r ->
  exec_block T call again
    [SStoreSlice x None (Some (EConst (PInt 4))) (EIntToBa (EBin BSub (ELen (EVar x)) (EConst (PInt zc))) (EConst (PInt 4)));
     SReturn (EVar x)] ρ
  = ORet (PBytes (int_to_ba (N.of_nat (length r - c)) 4 ++ skipn 4 r)%list).
Proof.
  intros -> Hx H4 Hc. step. rewrite Hx. cbn [len_eval bin_eval as_int]. unfold with_var. rewrite Hx.
  rewrite (int_to_ba_z_nat _ _ (length r - c) 4) by lia. rewrite (store_slice_to r _ _ 4) by (reflexivity || assumption).
  step. reflexivity.
Qed.

Lemma nth_ok (l : bytes) i : bytes_ok l -> (nth i l 0 < 256)%N.
Proof.
  intros H. destruct (Nat.lt_ge_cases i (length l)) as [Hi|Hi].
  - unfold bytes_ok in H. rewrite Forall_forall in H. apply H. now apply nth_In.
  - rewrite nth_overflow by exact Hi. lia.
Qed.

Lemma set_nth_ok (l : bytes) n x : bytes_ok l -> (x < 256)%N -> bytes_ok (set_nth l n x).
Proof.
  unfold bytes_ok. intros H Hx. revert n. induction H as [|a l Ha Hl IH]; intros n; [constructor|].
  destruct n as [|n]; cbn [set_nth]; constructor; auto.
Qed.

Lemma set_nth_length {A} (l : list A) n x : length (set_nth l n x) = length l.
Proof. revert n. induction l as [|a l IH]; intros [|n]; cbn [set_nth length]; auto. Qed.

Lemma bytes_of_ints (l : bytes) : bytes_ok l -> bytes_of_pvlist (map (fun b => PInt (Z.of_N b)) l) = Ok l.
Proof.
  induction 1 as [|b l Hb _ IH]; [reflexivity|]. cbn [map bytes_of_pvlist as_int]. rewrite IH, N2Z.id.
  destruct (Z.leb_spec 0 (Z.of_N b)); [|lia]. destruct (Z.ltb_spec (Z.of_N b) 256); [reflexivity|lia].
Qed.

(* 8.16 has no N2Z.inj_shiftr / inj_land *)
Lemma Z_of_N_shiftr a n : Z.shiftr (Z.of_N a) (Z.of_N n) = Z.of_N (N.shiftr a n).
Proof. rewrite Z.shiftr_div_pow2 by lia. rewrite N.shiftr_div_pow2, N2Z.inj_div, N2Z.inj_pow. reflexivity. Qed.

Lemma Z_of_N_shiftl a n : Z.shiftl (Z.of_N a) (Z.of_N n) = Z.of_N (N.shiftl a n).
Proof. rewrite Z.shiftl_mul_pow2 by lia. rewrite N.shiftl_mul_pow2, N2Z.inj_mul, N2Z.inj_pow. reflexivity. Qed.

Lemma Z_of_N_land a b : Z.land (Z.of_N a) (Z.of_N b) = Z.of_N (N.land a b).
Proof. destruct a, b; reflexivity. Qed.

Lemma Z_of_N_lxor a b : Z.lxor (Z.of_N a) (Z.of_N b) = Z.of_N (N.lxor a b).
Proof. destruct a, b; reflexivity. Qed.

Lemma bin_shr a n : bin_eval BShr (PInt (Z.of_N a)) (PInt (Z.of_N n)) = Ok (PInt (Z.of_N (N.shiftr a n))).
Proof. cbn [bin_eval as_int]. destruct (Z.ltb_spec (Z.of_N n) 0); [lia|]. now rewrite Z_of_N_shiftr. Qed.

Lemma bin_shl a n : (n <= 1048576)%N -> bin_eval BShl (PInt (Z.of_N a)) (PInt (Z.of_N n)) = Ok (PInt (Z.of_N (N.shiftl a n))).
Proof.
  intros H. cbn [bin_eval as_int]. destruct (Z.ltb_spec (Z.of_N n) 0); [lia|].
  destruct (Z.ltb_spec 1048576 (Z.of_N n)); [lia|]. now rewrite Z_of_N_shiftl.
Qed.

Lemma bin_and a b : bin_eval BAnd (PInt (Z.of_N a)) (PInt (Z.of_N b)) = Ok (PInt (Z.of_N (N.land a b))).
Proof. cbn [bin_eval as_int]. now rewrite Z_of_N_land. Qed.

Lemma bin_xor a b : bin_eval BXor (PInt (Z.of_N a)) (PInt (Z.of_N b)) = Ok (PInt (Z.of_N (N.lxor a b))).
Proof. cbn [bin_eval as_int]. now rewrite Z_of_N_lxor. Qed.

(* ------------------------------------------------------------------ dictionaries whose names are distinct *)

Fixpoint names_distinct (L : list string) : bool :=
  match L with [] => true | k :: r => negb (existsb (String.eqb k) r) && names_distinct r end.

Lemma existsb_eqb_In x xs : existsb (String.eqb x) xs = true <-> In x xs.
Proof.
  rewrite existsb_exists. split.
  - intros (y & Hy & E). apply String.eqb_eq in E. now subst y.
  - intros H. exists x. split; [exact H|apply String.eqb_refl].
Qed.

Lemma lookup_distinct {A} (l : list (string * A)) k v : names_distinct (map fst l) = true -> In (k, v) l -> lookup k l = Some v.
Proof.
  induction l as [|[k0 v0] l IH]; cbn [map fst names_distinct lookup In]; [contradiction|].
  intros H Hin. apply andb_prop in H. destruct H as [H1 H2]. destruct Hin as [E|Hin].
  - injection E as -> ->. now rewrite String.eqb_refl.
  - destruct (String.eqb_spec k k0) as [->|]; [|auto].
    apply (in_map fst), existsb_eqb_In in Hin. cbn [fst] in Hin. rewrite Hin in H1. discriminate.
Qed.

Lemma lookup_map {A B} (g : A -> B) (l : list (string * A)) k :
  lookup k (map (fun kf => (fst kf, g (snd kf))) l) = option_map g (lookup k l).
Proof. induction l as [|[k0 a] l IH]; [reflexivity|]. cbn [map fst snd lookup]. destruct (String.eqb k k0); [reflexivity|exact IH]. Qed.

Lemma keys_of_map {A B} (g : A -> B) (l : list (string * A)) :
  map (fun kv => PStr (fst kv)) (map (fun kf => (fst kf, g (snd kf))) l) = map (fun kf => PStr (fst kf)) l.
Proof. rewrite map_map. reflexivity. Qed.

Lemma dict_update_distinct {A} (acc new : list (string * A)) :
  names_distinct (map fst new) = true -> (forall k, In k (map fst new) -> lookup k acc = None) ->
  dict_update acc new = (acc ++ new)%list.
Proof.
  unfold dict_update. revert acc. induction new as [|[k v] new IH]; intros acc Hd Hn; cbn [fold_left map fst names_distinct] in *; [now rewrite app_nil_r|].
  apply andb_prop in Hd. destruct Hd as [Hk Hd]. cbn [fst snd]. rewrite dict_set_fresh by (apply Hn; now left).
  rewrite IH; [now rewrite <- app_assoc|exact Hd|].
  intros k' Hin. rewrite lookup_app_none by (apply Hn; now right). cbn.
  destruct (String.eqb_spec k' k) as [->|]; [|reflexivity].
  apply negb_true_iff in Hk. apply existsb_eqb_In in Hin. congruence.
Qed.

Lemma dict_update_nil {A} (new : list (string * A)) : names_distinct (map fst new) = true -> dict_update [] new = new.
Proof. intros H. rewrite dict_update_distinct; [reflexivity|exact H|reflexivity]. Qed.

Lemma lookup_remove_other (l : list (string * pv)) k k' : k <> k' -> lookup k (dict_remove l k') = lookup k l.
Proof.
  intros Hn. induction l as [|[k2 v2] l IH]; cbn; [reflexivity|].
  destruct (String.eqb_spec k' k2) as [->|Hn2]; cbn.
  - destruct (String.eqb_spec k k2); [contradiction|reflexivity].
  - destruct (String.eqb_spec k k2); [reflexivity|exact IH].
Qed.

Lemma remove_names_subset (l : list (string * pv)) k k' : existsb (String.eqb k) (map fst l) = false ->
  existsb (String.eqb k) (map fst (dict_remove l k')) = false.
Proof.
  induction l as [|[k2 v2] l IH]; cbn; [reflexivity|]. intros H. apply orb_false_iff in H. destruct H as [H1 H2].
  destruct (String.eqb k' k2); cbn; [exact H2|]. rewrite H1. cbn. auto.
Qed.

(* ------------------------------------------------------------------ decoding with a table whose masks are non-zero: it never fails; a descriptor at the head of a longer buffer *)

Definition decode_total (data : bytes) (L : layout) : list (string * value) :=
  match decode_bits data L with Ok d => d | Raise _ => [] end.

Definition masks_nonzero (L : layout) : bool :=
  forallb (fun kf => match snd kf with Mask 0 _ => false | _ => true end) L.

Lemma decode_bits_total data L : masks_nonzero L = true -> decode_bits data L = Ok (decode_total data L).
Proof.
  unfold decode_total. induction L as [|[k f] L IH]; cbn [masks_nonzero forallb decode_bits snd]; [reflexivity|].
  intros H. apply andb_prop in H. destruct H as [H1 H2]. specialize (IH H2).
  destruct f as [mk off|u off len]; cbn [decode1].
  - destruct mk as [|p]; [discriminate|]. cbn [ctz]. now rewrite IH.
  - now rewrite IH.
Qed.

Lemma decode_bits_names data L : forall d, decode_bits data L = Ok d -> map fst d = map fst L.
Proof.
  induction L as [|[k f] L IH]; intros d; cbn [decode_bits]; [now intros [= <-]|].
  destruct (decode1 data f); [|discriminate]. destruct (decode_bits data L); [|discriminate].
  intros [= <-]. cbn [map fst]. now rewrite (IH _ eq_refl).
Qed.

Lemma decoded_names b L : masks_nonzero L = true -> map fst (dict_of_decoded (decode_total b L)) = map fst L.
Proof. intros H. unfold dict_of_decoded. rewrite map_map. cbn [fst]. now apply (decode_bits_names b), decode_bits_total. Qed.

(* d[k] = v for a key the table does not have *)
Lemma decoded_set_fresh b L k v : masks_nonzero L = true -> existsb (String.eqb k) (map fst L) = false ->
  dict_set (dict_of_decoded (decode_total b L)) k v = (dict_of_decoded (decode_total b L) ++ [(k, v)])%list.
Proof. intros Hm Hk. apply dict_set_fresh, lookup_not_in. now rewrite decoded_names. Qed.

(* decode_bits(e, TABLE, x) with a table that cannot fail, x holding a dictionary *)
Lemma exec_decode {T call again e tname x L ρ} b cur :
  lookup tname T = Some L -> masks_nonzero L = true -> eval call ρ e = Ok (PBytes b) -> lookup x ρ = Some (PDict cur) ->
  exec T call again (SDecode e tname x) ρ = ONorm (dict_set ρ x (PDict (dict_update cur (dict_of_decoded (decode_total b L))))).
Proof. intros HT HL He Hx. cbn [exec exec_simple]. rewrite He, HT, decode_bits_total by exact HL. unfold with_var. now rewrite Hx. Qed.

(* x = {}; decode_bits(y, TABLE, x): x becomes the dictionary of the table's fields, whatever the bytes *)
Lemma exec_decode_fresh T call again x y tname L b rest ρ :
  lookup tname T = Some L -> masks_nonzero L = true -> names_distinct (map fst L) = true ->
  String.eqb y x = false -> lookup y ρ = Some (PBytes b) ->
  exec_block T call again (SAssign x (EDict []) :: SDecode (EVar y) tname x :: rest) ρ =
  exec_block T call again rest (dict_set (dict_set ρ x (PDict [])) x (PDict (dict_of_decoded (decode_total b L)))).
Proof.
  intros HT Hm Hn Hxy Hy. apply String.eqb_neq in Hxy. rewrite exec_block_cons. cbn [exec exec_simple eval].
  rewrite exec_block_cons. cbn [exec exec_simple eval]. rewrite lookup_set_other, Hy, HT, decode_bits_total by assumption. unfold with_var. rewrite lookup_set_same.
  rewrite dict_update_nil; [reflexivity|]. now rewrite decoded_names.
Qed.

Definition field_within (n : nat) (f : fdesc) : bool :=
  match f with
  | Mask m o => N.to_nat o + nbytes m <=? n
  | Blob u o len => N.to_nat (o + len * u) <=? n
  end.

Definition fields_within (n : nat) (L : layout) : bool := forallb (fun kf => field_within n (snd kf)) L.

Lemma decode_bits_prefix (a b : bytes) L : fields_within (length a) L = true -> decode_bits (a ++ b)%list L = decode_bits a L.
Proof.
  induction L as [|[k f] L IH]; cbn [fields_within forallb snd decode_bits]; [reflexivity|].
  intros H. apply andb_prop in H. destruct H as [H1 H2]. rewrite (IH H2).
  replace (decode1 (a ++ b)%list f) with (decode1 a f); [reflexivity|].
  destruct f as [mk off|u off len]; cbn [decode1 field_within] in *; apply Nat.leb_le in H1.
  - destruct (ctz mk); [|reflexivity]. now rewrite slice_app_prefix by lia.
  - now rewrite slice_app_prefix by lia.
Qed.

Lemma decode_total_prefix (a b : bytes) L : fields_within (length a) L = true -> decode_total (a ++ b)%list L = decode_total a L.
Proof. intros H. unfold decode_total. now rewrite decode_bits_prefix. Qed.

Lemma fields_within_mono n m L : n <= m -> fields_within n L = true -> fields_within m L = true.
Proof.
  intros Hnm. unfold fields_within. rewrite !forallb_forall. intros H x Hx. specialize (H x Hx).
  destruct (snd x) as [mk off|u off len]; cbn [field_within] in *; apply Nat.leb_le in H; apply Nat.leb_le; lia.
Qed.

(* ------------------------------------------------------------------ loops that consume a buffer *)

(* The decoder loops all have one shape: while something is left of the buffer (and a count read from it is not used up), look at
   the remainder R, append what it stands for to an accumulator, go on with `next R`.  `suffixes next k R` lists the remainders
   such a loop sees when it may run k times, `leftover next k R` is what it leaves. *)
Fixpoint suffixes (next : bytes -> bytes) (k : nat) (R : bytes) : list bytes :=
  match k with
  | O => []
  | S k' => match R with [] => [] | _ => R :: suffixes next k' (next R) end
  end.

Fixpoint leftover (next : bytes -> bytes) (k : nat) (R : bytes) : bytes :=
  match k with
  | O => R
  | S k' => match R with [] => [] | _ => leftover next k' (next R) end
  end.

Section Suffixes.
  Variable next : bytes -> bytes.

  Lemma suffixes_length k R : length (suffixes next k R) <= k.
  Proof. revert R. induction k as [|k IH]; intros R; [reflexivity|]. destruct R; cbn [suffixes length]; [lia|]. specialize (IH (next (n :: R))). lia. Qed.

  Hypothesis next_shorter : forall R, R <> [] -> length (next R) < length R.

  Lemma suffixes_length_buf k R : length (suffixes next k R) <= length R.
  Proof.
    revert R. induction k as [|k IH]; intros R; [cbn; lia|]. destruct R as [|a R]; [reflexivity|]. cbn [suffixes length].
    specialize (IH (next (a :: R))). specialize (next_shorter (a :: R) ltac:(discriminate)). cbn [length] in next_shorter. lia.
  Qed.
End Suffixes.

Lemma suffixes_nil next k : suffixes next k [] = [].
Proof. destruct k; reflexivity. Qed.

Lemma leftover_length next : (forall R, R <> [] -> length (next R) < length R) -> forall k R, length (leftover next k R) <= length R.
Proof.
  intros Hs. induction k as [|k IH]; intros R; [reflexivity|]. destruct R as [|a R]; [reflexivity|]. cbn [leftover].
  specialize (IH (next (a :: R))). specialize (Hs (a :: R) ltac:(discriminate)). lia.
Qed.

(* A buffer made of conformant descriptors, then anything: the remainders a loop sees are the descriptors, one each.  `enc` writes a
   descriptor, `out` is what the loop body makes of a remainder, `res` what it should make of the descriptor at its head. *)
Section Conformant.
  Variables (D V : Type) (ok : D -> Prop) (enc : D -> bytes) (next : bytes -> bytes) (out : bytes -> V) (res : D -> V).
  Hypothesis head_ok : forall d r, ok d -> enc d <> [] /\ next (enc d ++ r)%list = r /\ out (enc d ++ r)%list = res d.

  Lemma conformant_length ds : Forall ok ds -> length ds <= length (concat (map enc ds)).
  Proof.
    induction 1 as [|d ds Hd _ IH]; [reflexivity|]. cbn [map]. rewrite concat_cons, app_length. cbn [length].
    destruct (head_ok d [] Hd) as (Hne & _). destruct (enc d); [congruence|]. cbn [length]. lia.
  Qed.

  Lemma suffixes_conformant ds tail : Forall ok ds -> forall k, length ds <= k ->
    map out (suffixes next k (concat (map enc ds) ++ tail)%list) = (map res ds ++ map out (suffixes next (k - length ds) tail))%list /\
    leftover next k (concat (map enc ds) ++ tail)%list = leftover next (k - length ds) tail.
  Proof.
    induction 1 as [|d ds Hd _ IH]; intros k Hk; [now rewrite Nat.sub_0_r|].
    destruct k as [|k]; [cbn in Hk; lia|]. cbn [map length] in *. rewrite concat_cons, <- app_assoc.
    destruct (head_ok d (concat (map enc ds) ++ tail)%list Hd) as (Hne & Hnext & Hout).
    destruct (enc d ++ concat (map enc ds) ++ tail)%list as [|a l] eqn:E; [destruct (enc d); [congruence|discriminate]|].
    cbn [suffixes leftover map]. rewrite Hnext, Hout. destruct (IH k ltac:(lia)) as [-> ->]. split; reflexivity.
  Qed.

  (* nothing after them, and no bound that matters *)
  Lemma suffixes_concat ds k : Forall ok ds -> length (concat (map enc ds)) <= k ->
    map out (suffixes next k (concat (map enc ds))) = map res ds.
  Proof.
    intros H Hk. pose proof (conformant_length ds H) as Hl. destruct (suffixes_conformant ds [] H k ltac:(lia)) as [E _].
    now rewrite suffixes_nil, !app_nil_r in E.
  Qed.
End Conformant.

Section Consume.
  Variables (T : list (string * layout)) (P : program) (c : ex) (body : list st) (next : bytes -> bytes) (m : nat).
  (* m: the fuel one pass of the body needs for the calls it makes and the loops inside it; each pass is run with at least that.
     The loop's state: the bound that is left, the remainder of the buffer, the remainders seen so far *)
  Variable St : nat -> bytes -> list bytes -> env -> Prop.
  Hypothesis cond_ok : forall call k R seen ρ, St k R seen ρ ->
    exists v, eval call ρ c = Ok v /\ truthy v = match k, R with S _, _ :: _ => true | _, _ => false end.
  Hypothesis body_ok : forall f k R seen ρ, m <= f -> R <> [] -> St (S k) R seen ρ ->
    exists ρ', exec_block T (call_with P (run T P f)) (run T P f) body ρ = ONorm ρ' /\ St k (next R) (seen ++ [R]) ρ'.

  Lemma consume : forall k R seen f ρ, m + length (suffixes next k R) <= f -> St k R seen ρ ->
    exists ρ', run T P (S f) (SWhile c body) ρ = ONorm ρ' /\
      St (k - length (suffixes next k R)) (leftover next k R) (seen ++ suffixes next k R) ρ'.
  Proof.
    induction k as [|k IH]; intros R seen f ρ Hf HS; rewrite run_S, exec_while; destruct (cond_ok (call_with P (run T P f)) _ _ _ _ HS) as (v & -> & ->).
    - rewrite app_nil_r. eauto.
    - destruct R as [|a R]; [rewrite app_nil_r; eauto|]. cbn [suffixes leftover length] in *.
      destruct (body_ok f k (a :: R) seen ρ) as (ρ' & -> & HS'); [lia|discriminate|exact HS|].
      destruct f as [|f]; [lia|]. destruct (IH (next (a :: R)) (seen ++ [a :: R])%list f ρ') as (ρ'' & -> & HS''); [lia|exact HS'|].
      rewrite <- app_assoc in HS''. eauto.
  Qed.
End Consume.

(* the commonest case: `while len(buf): ...`, no other bound *)
Section ConsumeLen.
  Variables (T : list (string * layout)) (P : program) (buf : string) (body : list st) (next : bytes -> bytes) (m : nat).
  Variable Inv : list bytes -> env -> Prop.
  Hypothesis next_shorter : forall R, R <> [] -> length (next R) < length R.
  Hypothesis body_ok : forall f R seen ρ, m <= f -> R <> [] -> lookup buf ρ = Some (PBytes R) -> Inv seen ρ ->
    exists ρ', exec_block T (call_with P (run T P f)) (run T P f) body ρ = ONorm ρ' /\
               lookup buf ρ' = Some (PBytes (next R)) /\ Inv (seen ++ [R]) ρ'.

  Lemma consume_len R seen f ρ : m + length (suffixes next (length R) R) <= f -> lookup buf ρ = Some (PBytes R) -> Inv seen ρ ->
    exists ρ', run T P (S f) (SWhile (ELen (EVar buf)) body) ρ = ONorm ρ' /\ Inv (seen ++ suffixes next (length R) R) ρ'.
  Proof.
    intros Hf Hb HI.
    destruct (consume T P (ELen (EVar buf)) body next m
                (fun k R seen ρ => length R <= k /\ lookup buf ρ = Some (PBytes R) /\ Inv seen ρ)) with (k := length R) (R := R) (seen := seen) (f := f) (ρ := ρ)
      as (ρ' & E & _ & _ & HI'); [| |exact Hf|auto|eauto].
    - intros call k R0 seen0 ρ0 (Hk & Hb0 & _). cbn [eval]. rewrite Hb0. cbn [len_eval truthy]. eexists. split; [reflexivity|].
      destruct R0 as [|a R0]; [now destruct k|]. destruct k; cbn [length] in Hk; [lia|].
      destruct (Z.eqb_spec (Z.of_nat (S (length R0))) 0); [lia|reflexivity].
    - intros f0 k R0 seen0 ρ0 Hm Hne (Hk & Hb0 & HI0). destruct (body_ok f0 R0 seen0 ρ0 Hm Hne Hb0 HI0) as (ρ' & E & Hb' & HI').
      exists ρ'. specialize (next_shorter R0 Hne). repeat split; [exact E|lia|exact Hb'|exact HI'].
  Qed.
End ConsumeLen.

(* ------------------------------------------------------------------ `for` loops *)

Section For.
  Variables (T : list (string * layout)) (call : string -> list pv -> result pv) (again : st -> env -> outcome).
  Variables (x : string) (body : list st).
  Variable Inv : list pv -> env -> Prop.
  Hypothesis iter_ok : forall d ds ρ, Inv (d :: ds) ρ ->
    exists ρ', exec_block T call again body (dict_set ρ x d) = ONorm ρ' /\ Inv ds ρ'.
  Lemma for_consumes : forall ds ρ, Inv ds ρ -> exists ρ', for_iter T call again x body ds ρ = ONorm ρ' /\ Inv [] ρ'.
  Proof.
    induction ds as [|d ds IH]; intros ρ HI; cbn [for_iter]; [eauto|].
    destruct (iter_ok d ds ρ HI) as (ρ' & -> & HI'). auto.
  Qed.
End For.

Definition for_body (b : list st) (n : nat) : list st := match nth n b SPass with SFor _ _ b' => b' | _ => [] end.

(* a `for` loop that appends, for each item, some bytes to a byte string *)
Section ForAppends.
  Variables (T : list (string * layout)) (call : string -> list pv -> result pv) (again : st -> env -> outcome).
  Variables (x acc : string) (body : list st) (A : Type) (g : A -> pv) (enc : A -> bytes) (P : A -> Prop).
  Hypothesis body_ok : forall a pre ρ, P a -> lookup acc ρ = Some (PBytes pre) ->
    exists ρ', exec_block T call again body (dict_set ρ x (g a)) = ONorm ρ' /\ lookup acc ρ' = Some (PBytes (pre ++ enc a)%list).

  Lemma for_appends : forall l pre ρ, Forall P l -> lookup acc ρ = Some (PBytes pre) ->
    exists ρ', for_iter T call again x body (map g l) ρ = ONorm ρ' /\ lookup acc ρ' = Some (PBytes (pre ++ concat (map enc l))%list).
  Proof.
    induction l as [|a l IH]; intros pre ρ Hl Hacc; cbn [map for_iter concat].
    - rewrite app_nil_r. eauto.
    - inversion Hl as [|? ? Ha Hl']; subst. destruct (body_ok a pre ρ Ha Hacc) as (ρ1 & -> & H1).
      destruct (IH _ ρ1 Hl' H1) as (ρ' & E & H'). rewrite <- app_assoc in H'. eauto.
  Qed.
End ForAppends.
