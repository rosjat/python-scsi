(* Proofs/PyConverter.v — the four functions of pyscsi/utils/converter.py, REGENERATED into Gen/PyConv.v as programs of the
   small Python (Model/Py.v), compute exactly what the hand-written codec model (Base/Bytes.v, Model/Converter.v) computes:
   for every value, width, byte string, layout and dictionary.  The codec laws (Proofs/Codec.v, Layout.v, RoundTrip.v) are
   theorems about that model; through this file they are theorems about the regenerated source text. *)
From Coq Require Import String ZArith.
From PS Require Import Base.Bytes Base.Result Model.Converter Model.Py Proofs.PyLemmas Proofs.Codec Gen.PyConv.
Open Scope string_scope.
Open Scope nat_scope.

(* result[off] ^= b, then the rest one place further *)
Lemma xor_at_cons r off b v : off < length r ->
  xor_at r off (b :: v) = xor_at (set_nth r off (N.lxor (nth off r 0%N) b)) (S off) v.
Proof.
  revert r. induction off as [|off IH]; intros [|c r] H; cbn [length] in H; try lia.
  - reflexivity.
  - specialize (IH r ltac:(lia)). unfold xor_at in *. cbn [length firstn skipn app set_nth nth Nat.add] in *. now rewrite IH.
Qed.

(* ------------------------------------------------------------------ environments, frames *)

Definition T0 : list (string * layout) := [].
Notation crun f := (run T0 conv_program f).
Notation ccall f := (call_with conv_program (run T0 conv_program f)).

Definition agree_except (xs : list string) (ρ ρ' : env) : Prop := forall x, ~ In x xs -> lookup x ρ' = lookup x ρ.

Lemma agree_refl xs ρ : agree_except xs ρ ρ.
Proof. intros x _. reflexivity. Qed.
Lemma agree_set xs ρ ρ' x v : In x xs -> agree_except xs ρ ρ' -> agree_except xs ρ (dict_set ρ' x v).
Proof. intros Hx H y Hy. rewrite lookup_set_other by (intros ->; contradiction). apply H, Hy. Qed.

(* membership in a frame is decided by computation *)
Lemma agree_lookup xs ρ ρ' x : agree_except xs ρ ρ' -> existsb (String.eqb x) xs = false -> lookup x ρ' = lookup x ρ.
Proof. intros H Hx. apply H. intros Hin. apply existsb_eqb_In in Hin. rewrite Hin in Hx. discriminate. Qed.
(* a part of the block that assigns only xs, after a prefix that assigns only ys *)
Lemma agree_via xs ys ρ ρ1 ρ2 : agree_except xs ρ1 ρ2 -> forallb (fun x => existsb (String.eqb x) ys) xs = true ->
  agree_except ys ρ ρ1 -> agree_except ys ρ ρ2.
Proof.
  intros H2 Hi H1 x Hx. rewrite H2, H1; [reflexivity|exact Hx|]. intros Hin. apply Hx.
  rewrite forallb_forall in Hi. apply existsb_eqb_In, Hi, Hin.
Qed.

(* PyLemmas' lk and step, with look-ups also taken back through frames that do not list the variable *)
Ltac lkf := lk; repeat (match goal with H : agree_except _ _ ?r |- context [lookup ?x ?r] => rewrite (agree_lookup _ _ _ x H) by reflexivity end; lk).
Ltac stepf := step; lkf.
(* the frame of an environment reached by assignments and by parts with frames of their own: one rule for each *)
Ltac frame := lazymatch goal with
  | |- agree_except _ ?r ?r => apply agree_refl
  | |- agree_except _ _ (dict_set _ _ _) => apply agree_set; [apply existsb_eqb_In; reflexivity|frame]
  | H : agree_except _ _ ?r |- agree_except _ _ ?r => apply (agree_via _ _ _ _ _ H); [reflexivity|frame]
  end.

(* ------------------------------------------------------------------ scsi_int_to_ba *)

Lemma byte_of_shift (v : N) (i : nat) :
  Z.land (Z.shiftr (Z.of_N v) (Z.of_nat i * 8)) 255 = Z.of_N (N.shiftr v (8 * N.of_nat i) mod 256).
Proof.
  replace (Z.of_nat i * 8)%Z with (Z.of_N (8 * N.of_nat i)) by lia.
  change 255%Z with (Z.of_N (N.ones 8)). rewrite Z_of_N_shiftr, Z_of_N_land, N.land_ones. reflexivity.
Qed.

Lemma int_to_ba_rev_seq (v : N) (n : nat) : map (fun i => (N.shiftr v (8 * N.of_nat i) mod 256)%N) (rev (seq 0 n)) = int_to_ba v n.
Proof.
  induction n as [|n IH]; [reflexivity|]. rewrite seq_S, rev_app_distr. cbn [rev app map Nat.add int_to_ba]. now rewrite IH.
Qed.

Theorem py_int_to_ba : forall (v : N) (n : Z) f, (0 <= n <= 65536)%Z -> 1 <= f ->
  call_fun T0 conv_program f "converter.scsi_int_to_ba" [PInt (Z.of_N v); PInt n] = Ok (PBytes (int_to_ba v (Z.to_nat n))).
Proof.
  intros v n f Hn Hf. destruct f as [|f]; [lia|].
  apply (call_with_ret _ _ _ _ PC_scsi_int_to_ba _ [("to_convert", PInt (Z.of_N v)); ("array_size", PInt n)]); [reflexivity|reflexivity|].
  cbn [fn_body PC_scsi_int_to_ba]. rewrite exec_block_one. cbn [exec exec_simple].
  set (c := EComp _ _ _). cbn [eval]. subst c.
  erewrite (eval_comp _ _ _ _ _ _ (rev (seq 0 (Z.to_nat n))) (fun i => PInt (Z.of_nat i)) (fun i => PInt (Z.of_N (N.shiftr v (8 * N.of_nat i) mod 256)))).
  - cbn [bytearray_eval].
    rewrite <- (map_map _ (fun b => PInt (Z.of_N b))), int_to_ba_rev_seq, bytes_of_ints by apply int_to_ba_ok. reflexivity.
  - cbn [eval lookup String.eqb Ascii.eqb Bool.eqb range_eval as_int]. destruct (Z.ltb_spec 65536 n); [lia|]. cbn [reversed_eval]. rewrite <- map_rev. reflexivity.
  - reflexivity.
  - intros k _. cbn [eval]. lk.
    cbn [lookup String.eqb Ascii.eqb Bool.eqb bin_eval as_int]. destruct (Z.ltb_spec (Z.of_nat k * 8) 0); [lia|].
    cbn [bin_eval as_int]. now rewrite byte_of_shift.
Qed.

(* ------------------------------------------------------------------ scsi_ba_to_int *)

Lemma nth_app_mid {A} (pre post : list A) c d : nth (length pre) (pre ++ c :: post)%list d = c.
Proof. rewrite app_nth2 by lia. now rewrite Nat.sub_diag. Qed.

Lemma sum_pvs_shifted (pre suf : bytes) (acc : Z) :
  sum_pvs (map (fun i => PInt (Z.shiftl (Z.of_N (nth i (pre ++ suf)%list 0%N)) ((Z.of_nat (length (pre ++ suf)%list) - 1 - Z.of_nat i) * 8)))
               (seq (length pre) (length suf))) acc
  = Ok (PInt (acc + Z.of_N (ba_to_int suf))).
Proof.
  revert pre acc. induction suf as [|b suf IH]; intros pre acc.
  - cbn [length seq map sum_pvs ba_to_int]. do 2 f_equal. lia.
  - cbn [length seq map sum_pvs as_int]. rewrite nth_app_mid.
    replace (pre ++ b :: suf)%list with ((pre ++ [b]) ++ suf)%list by (rewrite <- app_assoc; reflexivity).
    replace (S (length pre)) with (length (pre ++ [b])%list) by (rewrite app_length; cbn [length]; lia).
    rewrite (IH (pre ++ [b])%list). do 2 f_equal.
    cbn [ba_to_int]. rewrite N2Z.inj_add, N2Z.inj_mul, N2Z.inj_pow, !app_length. cbn [length].
    rewrite Z.shiftl_mul_pow2 by lia.
    replace ((Z.of_nat (length pre + 1 + length suf) - 1 - Z.of_nat (length pre)) * 8)%Z with (8 * Z.of_nat (length suf))%Z by lia.
    rewrite Z.pow_mul_r by lia. change (2 ^ 8)%Z with 256%Z. change (Z.of_N 256) with 256%Z.
    rewrite nat_N_Z. lia.
Qed.

Theorem py_ba_to_int : forall (b : bytes) f, (Z.of_nat (length b) <= 65536)%Z -> 1 <= f ->
  call_fun T0 conv_program f "converter.scsi_ba_to_int" [PBytes b] = Ok (PInt (Z.of_N (ba_to_int b))).
Proof.
  intros b f Hb Hf. destruct f as [|f]; [lia|].
  apply (call_with_ret _ _ _ _ PC_scsi_ba_to_int _ [("ba", PBytes b)]); [reflexivity|reflexivity|].
  cbn [fn_body PC_scsi_ba_to_int]. rewrite exec_block_one. cbn [exec exec_simple].
  set (c := EComp _ _ _). cbn [eval]. subst c.
  erewrite (eval_comp _ _ _ _ _ _ (seq 0 (length b)) (fun i => PInt (Z.of_nat i))
              (fun i => PInt (Z.shiftl (Z.of_N (nth i b 0%N)) ((Z.of_nat (length b) - 1 - Z.of_nat i) * 8)))).
  - cbn [sum_eval]. rewrite (sum_pvs_shifted [] b). reflexivity.
  - cbn [eval lookup String.eqb Ascii.eqb Bool.eqb len_eval range_eval as_int].
    destruct (Z.ltb_spec 65536 (Z.of_nat (length b))); [lia|]. rewrite Nat2Z.id. reflexivity.
  - reflexivity.
  - intros k Hk. apply in_seq in Hk.
    cbn [eval]. lk. cbn [lookup String.eqb Ascii.eqb Bool.eqb index_eval as_int len_eval bin_eval].
    rewrite norm_index_in by lia. cbn [as_int bin_eval].
    destruct (Z.ltb_spec ((Z.of_nat (length b) - 1 - Z.of_nat k) * 8) 0); [lia|].
    destruct (Z.ltb_spec 1048576 ((Z.of_nat (length b) - 1 - Z.of_nat k) * 8)); [lia|]. now rewrite Nat2Z.id.
Qed.

(* ------------------------------------------------------------------ the two loops of decode_bits / encode_dict *)

Notation nb_cond := (ECmp CGt (EVar "_bm") (EConst (PInt 255))).
Notation nb_body := [SAug "_bm" BShr (EConst (PInt 8)); SAug "_num" BAdd (EConst (PInt 1))].

(* one turn of  while _bm > 0xFF: _bm >>= 8; _num += 1  — the same case distinction as nbytes_step *)
Lemma nb_turn f (bm : N) (num : Z) ρ :
  lookup "_bm" ρ = Some (PInt (Z.of_N bm)) -> lookup "_num" ρ = Some (PInt num) ->
  crun (S f) (SWhile nb_cond nb_body) ρ =
  if (bm <=? 255)%N then ONorm ρ
  else crun f (SWhile nb_cond nb_body) (dict_set (dict_set ρ "_bm" (PInt (Z.of_N (N.shiftr bm 8)))) "_num" (PInt (num + 1))).
Proof.
  intros Hbm Hnum. rewrite run_S, exec_while. cbn [eval]. rewrite Hbm. cbn [cmp_eval as_int truthy].
  destruct (N.leb_spec bm 255); destruct (Z.ltb_spec 255 (Z.of_N bm)); try lia; [reflexivity|].
  stepf. rewrite Hbm, (bin_shr bm 8 : bin_eval _ _ (PInt 8) = _). stepf. rewrite Hnum. reflexivity.
Qed.

Lemma nb_loop : forall (k : nat) (bm : N) (num : Z) ρ f,
  nbytes bm = S k -> k <= f ->
  lookup "_bm" ρ = Some (PInt (Z.of_N bm)) -> lookup "_num" ρ = Some (PInt num) ->
  exists ρ', crun (S f) (SWhile nb_cond nb_body) ρ = ONorm ρ' /\
     lookup "_num" ρ' = Some (PInt (num + Z.of_nat k)) /\ agree_except ["_bm"; "_num"] ρ ρ'.
Proof.
  induction k as [|k IH]; intros bm num ρ f Hn Hf Hbm Hnum;
    rewrite nbytes_step in Hn; rewrite (nb_turn f bm num ρ Hbm Hnum); destruct (bm <=? 255)%N.
  - exists ρ. split; [reflexivity|]. split; [|frame]. rewrite Hnum. do 2 f_equal. lia.
  - pose proof (nbytes_pos (N.shiftr bm 8)). lia.
  - discriminate.
  - injection Hn as Hn. destruct f as [|f]; [lia|].
    edestruct (IH (N.shiftr bm 8) (num + 1)%Z) as (ρ' & -> & Hnum' & Hag); [exact Hn|lia|lkf; reflexivity|lkf; reflexivity|].
    exists ρ'. split; [reflexivity|]. split; [|frame]. rewrite Hnum'. do 2 f_equal. lia.
Qed.

(* while not x & 1: x >>= 1; y >>= 1      (decode)        /      while not x & 1: x >>= 1; y <<= 1      (encode) *)
Notation tz_cond x := (ENot (EBin BAnd (EVar x) (EConst (PInt 1)))).
Notation tz_body x y o := [SAug x BShr (EConst (PInt 1)); SAug y o (EConst (PInt 1))].

Lemma tz_turn f (x y : string) (o : binop) (p : positive) (v v' : Z) ρ :
  x <> y -> lookup x ρ = Some (PInt (Zpos p)) -> lookup y ρ = Some (PInt v) -> bin_eval o (PInt v) (PInt 1) = Ok (PInt v') ->
  crun (S f) (SWhile (tz_cond x) (tz_body x y o)) ρ =
  match p with
  | xO q => crun f (SWhile (tz_cond x) (tz_body x y o)) (dict_set (dict_set ρ x (PInt (Zpos q))) y (PInt v'))
  | _ => ONorm ρ
  end.
Proof.
  intros Hxy Hx Hy Ho. rewrite run_S, exec_while. cbn [eval]. rewrite Hx.
  destruct p as [q|q|]; [reflexivity| |reflexivity].
  change (bin_eval BAnd (PInt (Zpos q~0)) (PInt 1)) with (Ok (PInt 0)). cbn [truthy negb Z.eqb].
  rewrite exec_block_cons. cbn [exec exec_simple eval]. rewrite Hx.
  change (bin_eval BShr (PInt (Zpos q~0)) (PInt 1)) with (Ok (PInt (Zpos q))). cbn beta iota.
  rewrite exec_block_cons. cbn [exec exec_simple eval]. rewrite lookup_set_other, Hy, Ho by (intros E; apply Hxy; now symmetry).
  reflexivity.
Qed.

Lemma tz_loop (x y : string) (o : binop) (step : N -> N) :
  x <> y -> (o = BShr /\ step = (fun v => N.shiftr v 1)) \/ (o = BShl /\ step = (fun v => N.shiftl v 1)) ->
  forall (p : positive) (v : N) ρ f,
  N.to_nat (pos_ctz p) <= f ->
  lookup x ρ = Some (PInt (Zpos p)) -> lookup y ρ = Some (PInt (Z.of_N v)) ->
  exists ρ', crun (S f) (SWhile (tz_cond x) (tz_body x y o)) ρ = ONorm ρ' /\
     lookup x ρ' = Some (PInt (Z.of_N (N.shiftr (Npos p) (pos_ctz p)))) /\
     lookup y ρ' = Some (PInt (Z.of_N (Nat.iter (N.to_nat (pos_ctz p)) step v))) /\ agree_except [x; y] ρ ρ'.
Proof.
  intros Hxy Ho.
  assert (Hstep : forall v, bin_eval o (PInt (Z.of_N v)) (PInt 1) = Ok (PInt (Z.of_N (step v)))).
  { intros v. destruct Ho as [[-> ->]|[-> ->]]; [exact (bin_shr v 1)|exact (bin_shl v 1 ltac:(lia))]. }
  induction p as [p _|p IH|]; intros v ρ f Hf Hx Hy; rewrite (tz_turn f x y o _ _ _ ρ Hxy Hx Hy (Hstep v)).
  1, 3: exists ρ; rewrite N.shiftr_0_r; split; [reflexivity|]; split; [exact Hx|]; split; [exact Hy|apply agree_refl].
  cbn [pos_ctz] in *. rewrite N2Nat.inj_succ in *. destruct f as [|f]; [lia|].
  edestruct (IH (step v)) as (ρ' & -> & Hx' & Hy' & Hag); [lia|rewrite lookup_set_other by exact Hxy; apply lookup_set_same|apply lookup_set_same|].
  exists ρ'. split; [reflexivity|]. split; [|split].
  - rewrite Hx'. do 3 f_equal. rewrite <- N.add_1_l, <- N.shiftr_shiftr. reflexivity.
  - rewrite Hy'. unfold Nat.iter. now rewrite nat_rect_succ_r.
  - apply (agree_via _ _ _ _ _ Hag); [cbn; now rewrite !String.eqb_refl, !orb_true_r|].
    apply agree_set; [now right; left|]. apply agree_set; [now left|]. apply agree_refl.
Qed.

Lemma iter_shift (sh : N -> N -> N) : (forall v, sh v 0%N = v) -> (forall v a b, sh (sh v a) b = sh v (a + b)%N) ->
  forall v n, Nat.iter n (fun v => sh v 1%N) v = sh v (N.of_nat n).
Proof.
  intros H0 Hadd v n. induction n as [|n IH]; [now rewrite H0|]. cbn [Nat.iter nat_rect]. fold (Nat.iter n (fun v => sh v 1%N) v).
  rewrite IH, Hadd. f_equal. lia.
Qed.

(* ------------------------------------------------------------------ layouts as Python values *)

Definition unit_name (u : N) : option string :=
  match u with 1%N => Some "b" | 2%N => Some "w" | 4%N => Some "dw" | _ => None end.
Definition pv_of_fdesc (f : fdesc) : pv :=
  match f with
  | Mask m o => PList [PInt (Z.of_N m); PInt (Z.of_N o)]
  | Blob u o len => PList [PStr (match unit_name u with Some s => s | None => "?" end); PInt (Z.of_N o); PInt (Z.of_N len)]
  end.
Definition pvs_of_layout (L : layout) : list (string * pv) := map (fun kf => (fst kf, pv_of_fdesc (snd kf))) L.
Definition pv_of_layout (L : layout) : pv := PDict (pvs_of_layout L).

Definition fdesc_py_ok (f : fdesc) : bool :=
  match f with
  | Mask m _ => (0 <? m)%N && (N.size m <=? 4096)%N
  | Blob u _ _ => match unit_name u with Some _ => true | None => false end
  end.
(* a mask field runs the byte-count loop (nbytes m <= size m + 8 turns, Codec.nbytes_le_size) and then the alignment loop (ctz m < size m turns) *)
Definition fdesc_fuel (f : fdesc) : nat := match f with Mask m _ => N.to_nat (N.size m) + 9 | Blob _ _ _ => 1 end.

Lemma py_slice_slice (l : bytes) (a b : N) :
  py_slice l (Some (Z.of_N a)) (Some (Z.of_N b)) = slice l (N.to_nat a) (N.to_nat b).
Proof.
  unfold py_slice, slice. rewrite !clip_N, skipn_min, <- (firstn_min (N.to_nat b - N.to_nat a)), skipn_length. f_equal. lia.
Qed.

Lemma store_slice_model (l x : bytes) (a b : N) : (a <= b)%N ->
  store_slice (PBytes l) (Some (PInt (Z.of_N a))) (Some (PInt (Z.of_N b))) (PBytes x)
  = Ok (PBytes (firstn (N.to_nat a) l ++ x ++ skipn (N.to_nat b) l)%list).
Proof.
  intros Hab. unfold store_slice. cbn [opt_int as_int]. rewrite !clip_N, firstn_min.
  replace (Nat.max _ _) with (Nat.min (N.to_nat b) (length l)) by lia. now rewrite skipn_min.
Qed.

(* the part the mask branches of decode_bits and encode_dict share:
   _num = 1; _bm = bitmask; while _bm > 0xFF: _bm >>= 8; _num += 1 *)
Lemma count_bytes_block f (m : N) rest ρ :
  nbytes m <= S f -> lookup "bitmask" ρ = Some (PInt (Z.of_N m)) ->
  exists ρ', exec_block T0 (ccall (S f)) (crun (S f))
               (SAssign "_num" (EConst (PInt 1)) :: SAssign "_bm" (EVar "bitmask") :: SWhile nb_cond nb_body :: rest) ρ
             = exec_block T0 (ccall (S f)) (crun (S f)) rest ρ' /\
    lookup "_num" ρ' = Some (PInt (Z.of_nat (nbytes m))) /\ agree_except ["_bm"; "_num"] ρ ρ'.
Proof.
  intros Hf Hbm. stepf. stepf. rewrite Hbm. rewrite exec_block_cons, <- run_S.
  destruct (nbytes m) as [|k] eqn:Hnb; [pose proof (nbytes_pos m); lia|].
  edestruct (nb_loop k m 1) as (ρ' & -> & Hnum & Hag); [exact Hnb|lia|lkf; reflexivity|lkf; reflexivity|].
  exists ρ'. split; [reflexivity|]. split; [|frame]. rewrite Hnum. do 2 f_equal. lia.
Qed.

(* the  if val[0] == 'b' / elif 'w' / elif 'dw'  chain of both functions; `last` is the statement that differs *)
Notation unit_is s := (ECmp CEq (EIndex (EVar "val") (EConst (PInt 0))) (EConst (PStr s))).
Notation unpack_blob := (SUnpack ["offset"; "length"] (ESlice (EVar "val") (Some (EConst (PInt 1))) None)).
Definition by_unit (last : ex -> st) : list st :=
  [SIf (unit_is "b") [unpack_blob; last (EVar "length")]
  [SIf (unit_is "w") [unpack_blob; last (EBin BMul (EVar "length") (EConst (PInt 2)))]
  [SIf (unit_is "dw") [unpack_blob; last (EBin BMul (EVar "length") (EConst (PInt 4)))]
  []]]].

Lemma unit_name_cases u s : unit_name u = Some s -> (u, s) = (1%N, "b") \/ (u, s) = (2%N, "w") \/ (u, s) = (4%N, "dw").
Proof. destruct u as [|[[[]|[]|]|[[]|[]|]|]]; try discriminate; intros [= <-]; auto. Qed.

(* the chain is walked once: it arrives at `last e`, and e is the length in bytes *)
Lemma by_unit_branch T call again last u s (o len : N) ρ :
  unit_name u = Some s -> lookup "val" ρ = Some (PList [PStr s; PInt (Z.of_N o); PInt (Z.of_N len)]) ->
  exists e, exec_block T call again (by_unit last) ρ
            = exec_block T call again [last e] (dict_set (dict_set ρ "offset" (PInt (Z.of_N o))) "length" (PInt (Z.of_N len))) /\
    forall call' ρ', lookup "length" ρ' = Some (PInt (Z.of_N len)) -> eval call' ρ' e = Ok (PInt (Z.of_N (len * u))).
Proof.
  intros Hu Hval.
  assert (Hif : forall t A B, exec_block T call again [SIf (unit_is t) A B] ρ = exec_block T call again (if String.eqb s t then A else B) ρ).
  { intros t A B. rewrite exec_block_one, exec_if. cbn [eval]. rewrite Hval. reflexivity. }
  assert (Hun : forall B, exec_block T call again (unpack_blob :: B) ρ
                          = exec_block T call again B (dict_set (dict_set ρ "offset" (PInt (Z.of_N o))) "length" (PInt (Z.of_N len)))).
  { intros B. stepf. rewrite Hval. reflexivity. }
  unfold by_unit. destruct (unit_name_cases u s Hu) as [[= -> ->]|[[= -> ->]|[= -> ->]]].
  all: eexists; split; [repeat (rewrite Hif; cbn [String.eqb Ascii.eqb Bool.eqb]); apply Hun|].
  all: intros call' ρ' Hl; cbn [eval]; rewrite Hl; cbn [bin_eval as_int]; do 2 f_equal; lia.
Qed.

(* ------------------------------------------------------------------ decode_bits *)

Notation is_mask := (ECmp CEq (ELen (EVar "val")) (EConst (PInt 2))).

Definition dec_if_then : list st := match nth 1 (for_body (fn_body PC_decode_bits) 0) SPass with SIf _ a _ => a | _ => [] end.

Notation DEC_VARS := ["bitmask"; "byte_pos"; "_num"; "_bm"; "value"; "offset"; "length"].

Lemma dec_mask_block f data p o ρ :
  (N.size (Npos p) <= 4096)%N -> N.to_nat (N.size (Npos p)) + 9 <= f ->
  lookup "data" ρ = Some (PBytes data) -> lookup "val" ρ = Some (PList [PInt (Zpos p); PInt (Z.of_N o)]) ->
  exists ρ', exec_block T0 (ccall f) (crun f) dec_if_then ρ = ONorm ρ' /\
    (forall v, decode1 data (Mask (Npos p) o) = Ok v -> lookup "value" ρ' = Some (pv_of_value v)) /\ agree_except DEC_VARS ρ ρ'.
Proof.
  intros Hsz Hf Hdata Hval.
  pose proof (nbytes_le_size (Npos p)) as Hnbs. pose proof (pos_ctz_lt_size p) as Hctz.
  destruct f as [|f]; [lia|].
  unfold dec_if_then, for_body. cbn [fn_body PC_decode_bits nth].
  stepf. rewrite Hval. cbn [iter_items length Nat.eqb combine fold_left fst snd].
  edestruct (count_bytes_block f (Npos p)) as (ρ1 & -> & Hnum1 & Hag1); [lia|lkf; reflexivity|].
  (* value = scsi_ba_to_int(data[byte_pos : byte_pos + _num]) *)
  stepf. rewrite Hnum1, Hdata. cbn [bin_eval as_int slice_eval opt_int].
  replace (Z.of_N o + Z.of_nat (nbytes (Npos p)))%Z with (Z.of_N (o + N.of_nat (nbytes (Npos p)))) by lia.
  rewrite py_slice_slice. replace (N.to_nat (o + N.of_nat (nbytes (Npos p)))) with (N.to_nat o + nbytes (Npos p)) by lia.
  set (w := slice data _ _).
  rewrite (py_ba_to_int w (S f) : _ -> _ -> ccall (S f) _ _ = _); [|unfold w, slice; rewrite firstn_length; lia|lia].
  (* while not bitmask & 1: bitmask >>= 1; value >>= 1 *)
  rewrite exec_block_cons, <- run_S.
  edestruct (tz_loop "bitmask" "value" BShr (fun v => N.shiftr v 1) ltac:(discriminate) (or_introl (conj eq_refl eq_refl)) p)
    as (ρ2 & -> & Hbm2 & Hv2 & Hag2); [|lkf; reflexivity|apply lookup_set_same|]; [lia|].
  stepf. rewrite Hv2, Hbm2, bin_and, exec_block_nil.
  eexists. split; [reflexivity|]. split; [|frame].
  cbn [decode1 ctz]. intros v [= <-]. lkf. cbn [pv_of_value]. now rewrite (iter_shift _ N.shiftr_0_r N.shiftr_shiftr), N2Nat.id.
Qed.

Notation dec_blob_stmt := (fun e => SAssign "value" (ESlice (EVar "data") (Some (EVar "offset")) (Some (EBin BAdd (EVar "offset") e)))).
Definition dec_if_else : list st := by_unit dec_blob_stmt.

Lemma dec_blob_block f data u s o len ρ :
  unit_name u = Some s ->
  lookup "data" ρ = Some (PBytes data) -> lookup "val" ρ = Some (PList [PStr s; PInt (Z.of_N o); PInt (Z.of_N len)]) ->
  exists ρ', exec_block T0 (ccall f) (crun f) dec_if_else ρ = ONorm ρ' /\
    lookup "value" ρ' = Some (PBytes (slice data (N.to_nat o) (N.to_nat (o + len * u)))) /\ agree_except DEC_VARS ρ ρ'.
Proof.
  intros Hu Hdata Hval. unfold dec_if_else.
  destruct (by_unit_branch T0 (ccall f) (crun f) dec_blob_stmt u s o len ρ Hu Hval) as (e & -> & He).
  stepf. rewrite Hdata, He by apply lookup_set_same. cbn [bin_eval as_int slice_eval opt_int].
  rewrite <- N2Z.inj_add, py_slice_slice, exec_block_nil.
  eexists. split; [reflexivity|]. split; [apply lookup_set_same|frame].
Qed.

(* if len(val) == 2: ... else: ...    — `value` ends as what the model's decode1 returns *)
Lemma dec_field f data fd v ρ :
  fdesc_py_ok fd = true -> fdesc_fuel fd <= f -> decode1 data fd = Ok v ->
  lookup "data" ρ = Some (PBytes data) -> lookup "val" ρ = Some (pv_of_fdesc fd) ->
  exists ρ', exec T0 (ccall f) (crun f) (SIf is_mask dec_if_then dec_if_else) ρ = ONorm ρ' /\
    lookup "value" ρ' = Some (pv_of_value v) /\ agree_except DEC_VARS ρ ρ'.
Proof.
  intros Hok Hf Hv Hdata Hval. rewrite exec_if. cbn [eval]. rewrite Hval.
  destruct fd as [m o|u o len]; cbn [fdesc_py_ok fdesc_fuel pv_of_fdesc] in *.
  - apply andb_prop in Hok. destruct Hok as [Hpos Hsz]. apply N.ltb_lt in Hpos. apply N.leb_le in Hsz.
    destruct m as [|p]; [lia|].
    destruct (dec_mask_block f data p o ρ Hsz Hf Hdata Hval) as (ρ' & Hrun & Hvalue & Hag). eauto.
  - destruct (unit_name u) as [s|] eqn:Hu; [|discriminate]. injection Hv as <-.
    exact (dec_blob_block f data u s o len ρ Hu Hdata Hval).
Qed.

(* the body of  for key in check_dict  *)
Notation dec_body := [SAssign "val" (EIndex (EVar "check_dict") (EVar "key")); SIf is_mask dec_if_then dec_if_else;
                      SStore "result_dict" [] (EVar "key") (EVar "value")].

Lemma dec_loop f data L : forallb (fun kf => fdesc_py_ok (snd kf)) L = true -> names_distinct (map fst L) = true ->
  Forall (fun kf => fdesc_fuel (snd kf) <= f) L ->
  forall rest r cur ρ, incl rest L -> decode_bits data rest = Ok r ->
  lookup "data" ρ = Some (PBytes data) -> lookup "check_dict" ρ = Some (PDict (pvs_of_layout L)) ->
  lookup "result_dict" ρ = Some (PDict cur) ->
  exists ρ', for_iter T0 (ccall f) (crun f) "key" dec_body (map (fun kf => PStr (fst kf)) rest) ρ = ONorm ρ' /\
    lookup "result_dict" ρ' = Some (PDict (dict_update cur (dict_of_decoded r))).
Proof.
  intros Hok Hdist Hfuel. rewrite forallb_forall in Hok. rewrite Forall_forall in Hfuel.
  induction rest as [|[k fd] rest IH]; intros r cur ρ Hin Hr Hdata Hcd Hres; cbn [decode_bits] in Hr.
  - injection Hr as <-. exists ρ. split; [reflexivity|exact Hres].
  - destruct (decode1 data fd) as [v|] eqn:Hv; [|discriminate]. destruct (decode_bits data rest) as [r'|] eqn:Hr'; [|discriminate].
    injection Hr as <-. assert (HinL : In (k, fd) L) by (apply Hin; now left).
    cbn [map for_iter fst]. stepf. rewrite Hcd. cbn [index_eval]. unfold pvs_of_layout at 1.
    rewrite lookup_map, (lookup_distinct L k fd Hdist HinL). cbn [option_map]. rewrite exec_block_cons.
    edestruct (dec_field f data fd v) as (ρ1 & -> & Hvalue & Hag); [exact (Hok _ HinL)|exact (Hfuel _ HinL)|exact Hv|lkf; exact Hdata|lkf; reflexivity|].
    stepf. unfold with_var. rewrite Hvalue. lkf. rewrite Hres. cbn [update_at set_item]. rewrite exec_block_nil.
    apply (IH r' (dict_set cur k (pv_of_value v))); [intros x Hx; apply Hin; now right|reflexivity|lkf; assumption|lkf; assumption|lkf; reflexivity].
Qed.

(* decode_bits of the regenerated source = decode_bits of the hand-written model, which returns a dictionary for every such table *)
Theorem py_decode_bits : forall (L : layout) (data : bytes) (cur : list (string * pv)) f,
  forallb (fun kf => fdesc_py_ok (snd kf)) L = true -> names_distinct (map fst L) = true ->
  Forall (fun kf => fdesc_fuel (snd kf) <= f) L ->
  call_fun T0 conv_program (S f) "converter.decode_bits" [PBytes data; pv_of_layout L; PDict cur]
  = Ok (PDict (dict_update cur (dict_of_decoded (decode_total data L)))).
Proof.
  intros L data cur f Hok Hdist Hfuel.
  assert (Hr : decode_bits data L = Ok (decode_total data L)).
  { apply decode_bits_total. unfold masks_nonzero. rewrite forallb_forall in *. intros [k fd] Hin. specialize (Hok _ Hin).
    cbn [snd] in *. now destruct fd as [[|p] o|u o len]. }
  apply (call_with_ret _ _ _ _ PC_decode_bits _ [("data", PBytes data); ("check_dict", pv_of_layout L); ("result_dict", PDict cur)]); [reflexivity|reflexivity|].
  change (fn_body PC_decode_bits) with [SFor "key" (EVar "check_dict") dec_body; SReturn (EVar "result_dict")].
  rewrite exec_block_cons, exec_for. cbn [eval lookup String.eqb Ascii.eqb Bool.eqb pv_of_layout iter_items].
  rewrite (keys_of_map pv_of_fdesc L : map _ (pvs_of_layout L) = _).
  edestruct (dec_loop f data L Hok Hdist Hfuel L) as (ρ' & -> & Hres); [apply incl_refl|exact Hr|reflexivity..|].
  stepf. rewrite Hres. reflexivity.
Qed.

(* ------------------------------------------------------------------ encode_dict: the byte-wise XOR loop *)

Notation xor_body := [SStore "result" [] (EBin BAdd (EVar "bytepos") (EVar "i"))
                        (EBin BXor (EIndex (EVar "result") (EBin BAdd (EVar "bytepos") (EVar "i"))) (EIndex (EVar "v") (EVar "i")))].

(* for i in range(len(v)): result[off + i] ^= v[i]   — with v = pre ++ suf, the turns for the indices of suf *)
Lemma xor_loop_from call again (off : nat) : forall (suf pre cur : bytes) ρ,
  off + length pre + length suf <= length cur -> bytes_ok cur -> bytes_ok suf ->
  lookup "result" ρ = Some (PBytes cur) -> lookup "v" ρ = Some (PBytes (pre ++ suf)%list) -> lookup "bytepos" ρ = Some (PInt (Z.of_nat off)) ->
  exists ρ', for_iter T0 call again "i" xor_body (map (fun i => PInt (Z.of_nat i)) (seq (length pre) (length suf))) ρ = ONorm ρ' /\
    lookup "result" ρ' = Some (PBytes (xor_at cur (off + length pre) suf)) /\ agree_except ["result"; "i"] ρ ρ'.
Proof.
  induction suf as [|b suf IH]; intros pre cur ρ Hlen Hokc Hoks Hres Hv Hbp; cbn [length seq map for_iter] in *.
  - exists ρ. rewrite xor_at_nil. split; [reflexivity|]. split; [exact Hres|frame].
  - inversion Hoks as [|? ? Hb Hoks']; subst.
    stepf. rewrite Hres, Hbp, Hv. cbn [bin_eval as_int index_eval]. rewrite app_length in *. cbn [length] in *.
    rewrite !norm_index_in by lia. rewrite Nat2Z.id, nth_app_mid, bin_xor. unfold with_var. lkf. rewrite Hres.
    cbn [update_at set_item as_int]. rewrite norm_index_in, N2Z.id by lia.
    replace (Z.to_nat (Z.of_nat off + Z.of_nat (length pre))) with (off + length pre) by lia.
    pose proof (lxor_lt _ _ 8 (nth_ok cur (off + length pre) Hokc) Hb) as Hx. change (2 ^ 8)%N with 256%N in Hx.
    destruct (Z.leb_spec 0 (Z.of_N (N.lxor (nth (off + length pre) cur 0%N) b))); [|lia].
    destruct (Z.ltb_spec (Z.of_N (N.lxor (nth (off + length pre) cur 0%N) b)) 256); [|lia]. cbn [andb]. rewrite exec_block_nil.
    replace (S (length pre)) with (length (pre ++ [b])%list) by (rewrite app_length; cbn [length]; lia).
    edestruct (IH (pre ++ [b])%list) as (ρ' & -> & Hres' & Hag);
      [|apply set_nth_ok; [exact Hokc|exact Hx]|exact Hoks'|lkf; reflexivity|lkf; rewrite <- app_assoc; exact Hv|lkf; exact Hbp|].
    { rewrite set_nth_length, app_length. cbn [length]. lia. }
    exists ρ'. split; [reflexivity|]. split; [|frame].
    rewrite Hres', xor_at_cons, app_length by lia. cbn [length]. do 3 f_equal. lia.
Qed.

Lemma xor_loop call again (r v : bytes) (off : nat) ρ :
  off + length v <= length r -> bytes_ok r -> bytes_ok v ->
  lookup "result" ρ = Some (PBytes r) -> lookup "v" ρ = Some (PBytes v) -> lookup "bytepos" ρ = Some (PInt (Z.of_nat off)) ->
  exists ρ', for_iter T0 call again "i" xor_body (map (fun i => PInt (Z.of_nat i)) (seq 0 (length v))) ρ = ONorm ρ' /\
    lookup "result" ρ' = Some (PBytes (xor_at r off v)) /\ agree_except ["result"; "i"] ρ ρ'.
Proof.
  intros Hlen Hr Hv Hres Hvv Hbp.
  destruct (xor_loop_from call again off v [] r ρ ltac:(cbn [length]; lia) Hr Hv Hres Hvv Hbp) as (ρ' & Hrun & Hres' & Hag).
  cbn [length] in Hres'. rewrite Nat.add_0_r in Hres'. eauto.
Qed.

(* ------------------------------------------------------------------ encode_dict *)

Definition enc_known : list st := match nth 0 (for_body (fn_body PC_encode_dict) 0) SPass with SIf _ _ b => b | _ => [] end.
Definition enc_if_then : list st := match nth 2 enc_known SPass with SIf _ a _ => a | _ => [] end.

Notation ENC_VARS := ["bitmask"; "bytepos"; "_num"; "_bm"; "value"; "offset"; "length"; "v"; "i"; "result"].

Lemma enc_mask_block f p o (x : N) r ρ :
  (N.size (Npos p) <= 4096)%N -> N.to_nat (N.size (Npos p)) + 9 <= f ->
  bytes_ok r -> N.to_nat o + nbytes (Npos p) <= length r ->
  lookup "result" ρ = Some (PBytes r) -> lookup "val" ρ = Some (PList [PInt (Zpos p); PInt (Z.of_N o)]) ->
  lookup "value" ρ = Some (PInt (Z.of_N x)) ->
  exists ρ', exec_block T0 (ccall f) (crun f) enc_if_then ρ = ONorm ρ' /\
    lookup "result" ρ' = Some (PBytes (xor_at r (N.to_nat o) (int_to_ba (N.shiftl x (pos_ctz p)) (nbytes (Npos p))))) /\
    agree_except ENC_VARS ρ ρ'.
Proof.
  intros Hsz Hf Hokr Hfit Hres Hval Hvalue.
  pose proof (nbytes_le_size (Npos p)) as Hnbs. pose proof (pos_ctz_lt_size p) as Hctz.
  destruct f as [|f]; [lia|].
  unfold enc_if_then, enc_known, for_body. cbn [fn_body PC_encode_dict nth].
  stepf. rewrite Hval. cbn [iter_items length Nat.eqb combine fold_left fst snd].
  edestruct (count_bytes_block f (Npos p)) as (ρ1 & -> & Hnum1 & Hag1); [lia|lkf; reflexivity|].
  (* _bm = bitmask; while not _bm & 1: _bm >>= 1; value <<= 1 *)
  stepf. rewrite exec_block_cons, <- run_S.
  edestruct (tz_loop "_bm" "value" BShl (fun v => N.shiftl v 1) ltac:(discriminate) (or_intror (conj eq_refl eq_refl)) p x)
    as (ρ2 & -> & Hbm2 & Hv2 & Hag2); [|apply lookup_set_same|lkf; exact Hvalue|]; [lia|].
  (* v = scsi_int_to_ba(value, _num) *)
  stepf. rewrite Hv2, Hnum1, (iter_shift _ N.shiftl_0_r N.shiftl_shiftl), N2Nat.id.
  rewrite (py_int_to_ba _ _ (S f) : _ -> _ -> ccall (S f) _ _ = _), Nat2Z.id by lia.
  set (w := int_to_ba _ _). assert (Hw : length w = nbytes (Npos p)) by apply int_to_ba_length.
  (* for i in range(len(v)): result[bytepos + i] ^= v[i] *)
  rewrite exec_block_cons, exec_for. cbn [eval]. lkf. cbn [len_eval range_eval as_int].
  destruct (Z.ltb_spec 65536 (Z.of_nat (length w))); [lia|]. rewrite Nat2Z.id. cbn [iter_items].
  edestruct xor_loop with (r := r) (v := w) (off := N.to_nat o) as (ρ3 & -> & Hres3 & Hag3);
    [lia|exact Hokr|apply int_to_ba_ok|lkf; exact Hres|lkf; reflexivity|lkf; now rewrite N_nat_Z|].
  rewrite exec_block_nil.
  eexists. split; [reflexivity|]. split; [exact Hres3|frame].
Qed.

Notation enc_blob_stmt := (fun e => SStoreSlice "result" (Some (EVar "offset")) (Some (EBin BAdd (EVar "offset") e)) (EVar "value")).
Definition enc_if_else : list st := by_unit enc_blob_stmt.

Lemma enc_blob_block f u s o len (b r : bytes) ρ :
  unit_name u = Some s ->
  lookup "result" ρ = Some (PBytes r) -> lookup "val" ρ = Some (PList [PStr s; PInt (Z.of_N o); PInt (Z.of_N len)]) ->
  lookup "value" ρ = Some (PBytes b) ->
  exists ρ', exec_block T0 (ccall f) (crun f) enc_if_else ρ = ONorm ρ' /\
    lookup "result" ρ' = Some (PBytes (firstn (N.to_nat o) r ++ b ++ skipn (N.to_nat (o + len * u)) r)%list) /\
    agree_except ENC_VARS ρ ρ'.
Proof.
  intros Hu Hres Hval Hvalue. unfold enc_if_else.
  destruct (by_unit_branch T0 (ccall f) (crun f) enc_blob_stmt u s o len ρ Hu Hval) as (e & -> & He).
  stepf. rewrite Hvalue, He by apply lookup_set_same. cbn [bin_eval as_int]. unfold with_var. lkf. rewrite Hres.
  rewrite <- N2Z.inj_add, store_slice_model, exec_block_nil by lia.
  eexists. split; [reflexivity|]. split; [apply lookup_set_same|frame].
Qed.

(* if len(val) == 2: ... else: ...    — `result` ends as what the model's encode1 returns, when it returns a buffer *)
Lemma enc_field f fd v cur cur' ρ :
  fdesc_py_ok fd = true -> fdesc_fuel fd <= f -> bytes_ok cur -> encode1 cur fd v = Ok cur' ->
  lookup "result" ρ = Some (PBytes cur) -> lookup "val" ρ = Some (pv_of_fdesc fd) -> lookup "value" ρ = Some (pv_of_value v) ->
  exists ρ', exec T0 (ccall f) (crun f) (SIf is_mask enc_if_then enc_if_else) ρ = ONorm ρ' /\
    lookup "result" ρ' = Some (PBytes cur') /\ agree_except ENC_VARS ρ ρ'.
Proof.
  intros Hok Hf Hokc He Hres Hval Hvalue. rewrite exec_if. cbn [eval]. rewrite Hval.
  destruct fd as [m o|u o len], v as [x|b]; cbn [fdesc_py_ok fdesc_fuel pv_of_fdesc encode1] in *; try discriminate.
  - apply andb_prop in Hok. destruct Hok as [Hpos Hsz]. apply N.ltb_lt in Hpos. apply N.leb_le in Hsz.
    destruct m as [|p]; [lia|]. cbn [ctz] in He.
    destruct (Nat.leb_spec (N.to_nat o + nbytes (Npos p)) (length cur)) as [Hfit|]; [|discriminate]. injection He as <-.
    exact (enc_mask_block f p o x cur ρ Hsz Hf Hokc Hfit Hres Hval Hvalue).
  - destruct (unit_name u) as [s|] eqn:Hu; [|discriminate]. injection He as <-.
    exact (enc_blob_block f u s o len b cur ρ Hu Hres Hval Hvalue).
Qed.

Definition values_ok (dv : list (string * value)) : Prop :=
  Forall (fun kv => match snd kv with VB b => bytes_ok b | VI _ => True end) dv.

(* the body of  for key in data_dict:   if key not in check_dict: continue;  value = data_dict[key]; val = check_dict[key]; ... *)
Notation enc_body := [SIf (EIn true (EVar "key") (EVar "check_dict")) []
                        [SAssign "value" (EIndex (EVar "data_dict") (EVar "key")); SAssign "val" (EIndex (EVar "check_dict") (EVar "key"));
                         SIf is_mask enc_if_then enc_if_else]].

Lemma enc_loop f L dv : forallb (fun kf => fdesc_py_ok (snd kf)) L = true -> Forall (fun kf => fdesc_fuel (snd kf) <= f) L ->
  names_distinct (map fst dv) = true -> values_ok dv ->
  forall rest cur r' ρ, incl rest dv -> bytes_ok cur -> encode_dict rest L cur = Ok r' ->
  lookup "data_dict" ρ = Some (PDict (dict_of_decoded dv)) -> lookup "check_dict" ρ = Some (PDict (pvs_of_layout L)) ->
  lookup "result" ρ = Some (PBytes cur) ->
  exists ρ', for_iter T0 (ccall f) (crun f) "key" enc_body (map (fun kv => PStr (fst kv)) rest) ρ = ONorm ρ' /\
    lookup "result" ρ' = Some (PBytes r').
Proof.
  intros Hok Hfuel Hdist Hvals. rewrite forallb_forall in Hok. unfold values_ok in Hvals. rewrite Forall_forall in Hfuel, Hvals.
  induction rest as [|[k v] rest IH]; intros cur r' ρ Hin Hokc Henc Hdd Hcd Hres; cbn [encode_dict] in Henc.
  - injection Henc as <-. exists ρ. split; [reflexivity|exact Hres].
  - assert (Hindv : In (k, v) dv) by (apply Hin; now left). assert (Hin' : incl rest dv) by (intros x Hx; apply Hin; now right).
    cbn [map for_iter fst]. rewrite exec_block_one, exec_if. cbn [eval]. lkf. rewrite Hcd. cbn [in_eval]. unfold pvs_of_layout at 1. rewrite lookup_map.
    destruct (lookup k L) as [fd|] eqn:Hlk; cbn [option_map negb truthy].
    2:{ rewrite exec_block_nil. apply (IH cur r'); [assumption..|lkf; assumption|lkf; assumption|lkf; assumption]. }
    destruct (encode1 cur fd v) as [cur'|] eqn:He1; [|discriminate]. pose proof (lookup_In _ _ _ Hlk) as HinL.
    stepf. rewrite Hdd. cbn [index_eval]. unfold dict_of_decoded at 1. rewrite lookup_map, (lookup_distinct dv k v Hdist Hindv). cbn [option_map].
    stepf. rewrite Hcd. cbn [index_eval]. unfold pvs_of_layout at 1. rewrite lookup_map, Hlk. cbn [option_map].
    rewrite exec_block_one.
    edestruct (enc_field f fd v cur cur') as (ρ1 & -> & Hres1 & Hag);
      [exact (Hok _ HinL)|exact (Hfuel _ HinL)|exact Hokc|exact He1|lkf; exact Hres|lkf; reflexivity|lkf; reflexivity|].
    apply (IH cur' r'); [assumption|exact (encode1_ok cur fd v cur' Hokc (Hvals _ Hindv) He1)|assumption|lkf; assumption..].
Qed.

(* encode_dict of the regenerated source = encode_dict of the hand-written model, whenever the model returns a buffer *)
Theorem py_encode_dict_refines : forall (L : layout) (dv : list (string * value)) (r r' : bytes) f,
  forallb (fun kf => fdesc_py_ok (snd kf)) L = true -> Forall (fun kf => fdesc_fuel (snd kf) <= f) L ->
  names_distinct (map fst dv) = true -> values_ok dv -> bytes_ok r ->
  encode_dict dv L r = Ok r' ->
  call_fun T0 conv_program (S f) "converter.encode_dict" [PDict (dict_of_decoded dv); pv_of_layout L; PBytes r] = Ok (PBytes r').
Proof.
  intros L dv r r' f Hok Hfuel Hdist Hvals Hokr Henc.
  apply (call_with_ret _ _ _ _ PC_encode_dict _ [("data_dict", PDict (dict_of_decoded dv)); ("check_dict", pv_of_layout L); ("result", PBytes r)]);
    [reflexivity|reflexivity|].
  change (fn_body PC_encode_dict) with [SFor "key" (EVar "data_dict") enc_body; SReturn (EVar "result")].
  rewrite exec_block_cons, exec_for. cbn [eval lookup String.eqb Ascii.eqb Bool.eqb iter_items].
  rewrite (keys_of_map pv_of_value dv : map _ (dict_of_decoded dv) = _).
  edestruct (enc_loop f L dv Hok Hfuel Hdist Hvals dv r r') as (ρ' & -> & Hres); [apply incl_refl|exact Hokr|exact Henc|reflexivity..|].
  stepf. rewrite Hres. reflexivity.
Qed.

(* the fuel a well-formed table needs: masks of at most 4096 bits, so 4096 + 9 rounded up; Z.to_nat keeps the numeral binary *)
Lemma fuel_bound (L : layout) f : forallb (fun kf => fdesc_py_ok (snd kf)) L = true -> Z.to_nat 4200 <= f ->
  Forall (fun kf => fdesc_fuel (snd kf) <= f) L.
Proof.
  intros Hok Hf. rewrite forallb_forall in Hok. apply Forall_forall. intros [k fd] Hin. specialize (Hok _ Hin). cbn [snd] in *.
  destruct fd as [m o|u o len]; cbn [fdesc_py_ok fdesc_fuel] in *; [|lia].
  apply andb_prop in Hok. destruct Hok as [_ Hsz]. apply N.leb_le in Hsz. lia.
Qed.
