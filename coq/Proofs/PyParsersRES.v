(* Proofs/PyParsersRES.v — READ ELEMENT STATUS, the REGENERATED body of ReadElementStatus.unmarshall_datain (Gen/PyFuncs.v) under the
   semantics of Model/Py.v: what one pass of the inner loop (one element descriptor: common fields, optional volume tags,
   element-type specific fields) and the inner loop as a whole do, for every content of the buffer. *)
From Coq Require Import String ZArith.
From PS Require Import Base.Bytes Model.Converter Model.Py Proofs.PyLemmas Proofs.PyParsers Gen.Tables Gen.PyFuncs.
Open Scope string_scope.
Open Scope nat_scope.

Definition RES := "scsi_cdb_readelementstatus.ReadElementStatus.unmarshall_datain".
Notation PF_res := PF_scsi_cdb_readelementstatus_ReadElementStatus_unmarshall_datain.
Definition T_res_hdr := T_scsi_cdb_readelementstatus__ReadElementStatus___datain_bits.
Definition T_res_page := T_scsi_cdb_readelementstatus__ReadElementStatus___element_status_page_bits.
Definition T_res_elem := T_scsi_cdb_readelementstatus__ReadElementStatus___element_status_descriptor_bits.
Definition T_res_dt := T_scsi_cdb_readelementstatus__ReadElementStatus___data_transfer_descriptor_bits.
Definition T_res_st := T_scsi_cdb_readelementstatus__ReadElementStatus___storage_descriptor_bits.
Definition T_res_ie := T_scsi_cdb_readelementstatus__ReadElementStatus___import_export_descriptor_bits.

Lemma res_lookup : lookup RES py_program = Some PF_res.
Proof. vm_compute. reflexivity. Qed.

(* what is used of a table of the library: the name it goes by, that decoding with it cannot fail, that its fields lie in the first n bytes *)
Definition table_at (name : string) (L : layout) (n : nat) : Prop :=
  lookup name all_tables = Some L /\ masks_nonzero L = true /\ fields_within n L = true.

Lemma tbl_hdr : table_at "scsi_cdb_readelementstatus.ReadElementStatus._datain_bits" T_res_hdr 8.
Proof. vm_compute. repeat split; reflexivity. Qed.
Lemma tbl_page : table_at "scsi_cdb_readelementstatus.ReadElementStatus._element_status_page_bits" T_res_page 8.
Proof. vm_compute. repeat split; reflexivity. Qed.
Lemma tbl_elem : table_at "scsi_cdb_readelementstatus.ReadElementStatus._element_status_descriptor_bits" T_res_elem 12.
Proof. vm_compute. repeat split; reflexivity. Qed.
Lemma tbl_dt : table_at "scsi_cdb_readelementstatus.ReadElementStatus._data_transfer_descriptor_bits" T_res_dt 12.
Proof. vm_compute. repeat split; reflexivity. Qed.
Lemma tbl_st : table_at "scsi_cdb_readelementstatus.ReadElementStatus._storage_descriptor_bits" T_res_st 12.
Proof. vm_compute. repeat split; reflexivity. Qed.
Lemma tbl_ie : table_at "scsi_cdb_readelementstatus.ReadElementStatus._import_export_descriptor_bits" T_res_ie 12.
Proof. vm_compute. repeat split; reflexivity. Qed.

(* the flags of an element status page *)
Record pflags := mkPF { pf_pv : bool; pf_av : bool; pf_ty : Z }.
Definition b2z (b : bool) : Z := if b then 1%Z else 0%Z.

(* what the decoder reports for one element descriptor d of a page with these flags: the common fields, the volume tags at
   bytes 12-47 / next 36 bytes when the page announces them, the fields of the element type *)
Definition elem_dict (F : pflags) (d : bytes) : pv :=
  let r0 := dict_update [] (dict_of_decoded (decode_total d T_res_elem)) in
  let r1 := if pf_pv F then dict_update r0 [("primary_volume_tag", PBytes (firstn 36 (skipn 12 d)))] else r0 in
  let r2 := if pf_av F then dict_update r1 [("alternate_volume_tag", PBytes (firstn 36 (skipn (if pf_pv F then 48 else 12) d)))] else r1 in
  let r3 := if Z.eqb (pf_ty F) 4 then dict_update r2 (dict_of_decoded (decode_total d T_res_dt)) else r2 in
  let r4 := if Z.eqb (pf_ty F) 2 then dict_update r3 (dict_of_decoded (decode_total d T_res_st)) else r3 in
  let r5 := if Z.eqb (pf_ty F) 3 then dict_update r4 (dict_of_decoded (decode_total d T_res_ie)) else r4 in
  PDict r5.

(* only the head of the buffer is looked at: 12 bytes and the volume tags *)
Lemma elem_dict_prefix F (d r : bytes) : 12 + (if pf_pv F then 36 else 0) + (if pf_av F then 36 else 0) <= length d ->
  elem_dict F (d ++ r)%list = elem_dict F d.
Proof.
  intros H. destruct tbl_elem as (_ & _ & Be), tbl_dt as (_ & _ & Bdt), tbl_st as (_ & _ & Bst), tbl_ie as (_ & _ & Bie).
  destruct F as [p a ty]. unfold elem_dict. cbn [pf_pv pf_av pf_ty] in *.
  rewrite !(decode_total_prefix d) by (apply (fields_within_mono 12); [lia|assumption]).
  destruct p, a; cbv iota in *; rewrite ?(firstn_skipn_app 36) by lia; reflexivity.
Qed.

Notation res_outer_body := (while_body PF_res 5).
Definition res_inner_loop : st := nth 6 res_outer_body SPass.
Definition res_inner_cond : ex := match res_inner_loop with SWhile c _ => c | _ => EConst PNone end.
Definition res_inner_body : list st := match res_inner_loop with SWhile _ b => b | _ => [] end.

(* The body of the inner loop has five conditionals in a row.  Each is described by what it does to `_rr` and `_dd` as a
   function of its flag, relative to an environment ρ0 from which only these two variables have moved away, so they are passed
   one after the other and the flags are only distinguished where elem_dict is compared with the dictionary built, so n
   conditionals cost n steps, not 2^n paths.

   `if _r[fk]: _rr.update({tk: _dd[0:36]}); _dd = _dd[36:]` — PVOLTAG and AVOLTAG *)
Lemma res_voltag_step call again fk tk ρ0 ρ pf v rr dd :
  (forall x, x <> "_rr" -> x <> "_dd" -> lookup x ρ = lookup x ρ0) ->
  lookup "_r" ρ0 = Some (PDict pf) -> lookup fk pf = Some v ->
  lookup "_rr" ρ = Some (PDict rr) -> lookup "_dd" ρ = Some (PBytes dd) ->
  exists ρ',
    exec all_tables call again
      (SIf (EIndex (EVar "_r") (EConst (PStr fk)))
         [SUpdate "_rr" [] (EDict [(tk, ESlice (EVar "_dd") (Some (EConst (PInt 0))) (Some (EConst (PInt 36))))]);
          SAssign "_dd" (ESlice (EVar "_dd") (Some (EConst (PInt 36))) None)] []) ρ = ONorm ρ' /\
    lookup "_rr" ρ' = Some (PDict (if truthy v then dict_update rr [(tk, PBytes (firstn 36 dd))] else rr)) /\
    lookup "_dd" ρ' = Some (PBytes (if truthy v then skipn 36 dd else dd)) /\
    (forall x, x <> "_rr" -> x <> "_dd" -> lookup x ρ' = lookup x ρ0).
Proof.
  intros G Hr Hf Hrr Hdd. rewrite exec_if. cbn [eval]. rewrite (G "_r"), Hr by discriminate. cbn [index_eval]. rewrite Hf.
  destruct (truthy v).
  - step. rewrite Hdd. cbn [slice_eval opt_int as_int]. change 36%Z with (Z.of_nat 36). rewrite py_slice_from0, py_slice_to.
    unfold with_var. rewrite Hrr. cbn [update_at].
    step. rewrite Hdd. cbn [slice_eval opt_int as_int]. change 36%Z with (Z.of_nat 36). rewrite py_slice_from.
    rewrite exec_block_nil. eexists. split; [reflexivity|]. split; [lk; reflexivity|]. split; [lk; reflexivity|].
    intros x H1 H2. rewrite !lookup_set_other by assumption. exact (G x H1 H2).
  - rewrite exec_block_nil. eauto.
Qed.

(* `if _r["element_type"] == k: decode_bits(_d, TABLE, _rr)` — the three element types with fields of their own *)
Lemma res_type_step call again k tname L n ρ0 ρ pf ty rr d :
  table_at tname L n ->
  (forall x, x <> "_rr" -> x <> "_dd" -> lookup x ρ = lookup x ρ0) ->
  lookup "_r" ρ0 = Some (PDict pf) -> lookup "element_type" pf = Some (PInt ty) -> lookup "_d" ρ0 = Some (PBytes d) ->
  lookup "_rr" ρ = Some (PDict rr) ->
  exists ρ',
    exec all_tables call again
      (SIf (ECmp CEq (EIndex (EVar "_r") (EConst (PStr "element_type"))) (EConst (PInt k))) [SDecode (EVar "_d") tname "_rr"] []) ρ = ONorm ρ' /\
    lookup "_rr" ρ' = Some (PDict (if Z.eqb ty k then dict_update rr (dict_of_decoded (decode_total d L)) else rr)) /\
    (forall x, x <> "_rr" -> x <> "_dd" -> lookup x ρ' = lookup x ρ0).
Proof.
  intros (HT & HL & _) G Hr Hty Hd Hrr. rewrite exec_if. cbn [eval]. rewrite (G "_r"), Hr by discriminate. cbn [index_eval]. rewrite Hty.
  cbn [cmp_eval py_eq as_int truthy].
  destruct (Z.eqb ty k).
  - rewrite exec_block_cons, (exec_decode d rr HT HL); [|cbn [eval]; now rewrite (G "_d"), Hd by discriminate|exact Hrr].
    rewrite exec_block_nil. eexists. split; [reflexivity|]. split; [lk; reflexivity|].
    intros x H1 H2. rewrite lookup_set_other by assumption. exact (G x H1 H2).
  - rewrite exec_block_nil. eauto.
Qed.

(* the second tag lies behind the first, if there is one *)
Lemma second_tag_at (b : bool) (d : bytes) : (if b then skipn 36 (skipn 12 d) else skipn 12 d) = skipn (if b then 48 else 12) d.
Proof. destruct b; [apply skipn_skipn'|reflexivity]. Qed.

(* One pass of the inner loop, for any content of the variables: the element dictionary of the remainder R — elem_dict with
   the page's flags, applied to the whole remainder — is appended to `_ed`, and `_d` moves on by ELEMENT DESCRIPTOR LENGTH. *)
Lemma res_elem_step call again ρ pf vp va ty edl R ed :
  lookup "_r" ρ = Some (PDict pf) ->
  lookup "pvoltag" pf = Some vp -> lookup "avoltag" pf = Some va -> lookup "element_type" pf = Some (PInt ty) ->
  lookup "_edl" ρ = Some (PInt (Z.of_nat edl)) -> lookup "_d" ρ = Some (PBytes R) -> lookup "_ed" ρ = Some (PList ed) ->
  exists ρ', exec_block all_tables call again res_inner_body ρ = ONorm ρ' /\
    lookup "_d" ρ' = Some (PBytes (skipn edl R)) /\
    lookup "_ed" ρ' = Some (PList (ed ++ [elem_dict (mkPF (truthy vp) (truthy va) ty) R])) /\
    (forall x, x <> "_rr" -> x <> "_dd" -> x <> "_ed" -> x <> "_d" -> lookup x ρ' = lookup x ρ).
Proof.
  intros Hr Hpv Hav Hty Hedl Hd Hed.
  destruct tbl_elem as (Te & We & _).
  cbn [res_inner_body res_inner_loop while_body fn_body nth PF_res].
  step. rewrite exec_block_cons, (exec_decode R [] Te We); [|cbn [eval]; lk; now rewrite Hd|lk; reflexivity].
  lk. set (r0 := dict_update [] _).
  step. rewrite Hd. cbn [slice_eval opt_int as_int]. change 12%Z with (Z.of_nat 12). rewrite py_slice_from.
  (* from here on the environment, the dictionary under construction and the tag cursor are variables *)
  set (ρ1 := dict_set _ "_dd" _).
  assert (G1 : forall x, x <> "_rr" -> x <> "_dd" -> lookup x ρ1 = lookup x ρ) by (intros x H1 H2; subst ρ1; now rewrite !lookup_set_other).
  assert (Hrr1 : lookup "_rr" ρ1 = Some (PDict r0)) by (subst ρ1; lk; reflexivity).
  assert (Hdd1 : lookup "_dd" ρ1 = Some (PBytes (skipn 12 R))) by (subst ρ1; lk; reflexivity).
  clearbody ρ1.
  rewrite exec_block_cons.
  destruct (res_voltag_step call again "pvoltag" "primary_volume_tag" ρ ρ1 pf vp r0 (skipn 12 R) G1 Hr Hpv Hrr1 Hdd1) as (ρ2 & -> & Hrr2 & Hdd2 & G2).
  set (r1 := if truthy vp then _ else r0) in Hrr2. set (dd2 := if truthy vp then _ else _) in Hdd2.
  rewrite exec_block_cons.
  destruct (res_voltag_step call again "avoltag" "alternate_volume_tag" ρ ρ2 pf va r1 dd2 G2 Hr Hav Hrr2 Hdd2) as (ρ3 & -> & Hrr3 & _ & G3).
  set (r2 := if truthy va then _ else r1) in Hrr3.
  rewrite exec_block_cons.
  destruct (res_type_step call again 4 _ _ _ ρ ρ3 pf ty r2 R tbl_dt G3 Hr Hty Hd Hrr3) as (ρ4 & -> & Hrr4 & G4).
  set (r3 := if Z.eqb ty 4 then _ else r2) in Hrr4.
  rewrite exec_block_cons.
  destruct (res_type_step call again 2 _ _ _ ρ ρ4 pf ty r3 R tbl_st G4 Hr Hty Hd Hrr4) as (ρ5 & -> & Hrr5 & G5).
  set (r4 := if Z.eqb ty 2 then _ else r3) in Hrr5.
  rewrite exec_block_cons.
  destruct (res_type_step call again 3 _ _ _ ρ ρ5 pf ty r4 R tbl_ie G5 Hr Hty Hd Hrr5) as (ρ6 & -> & Hrr6 & G6).
  set (r5 := if Z.eqb ty 3 then _ else r4) in Hrr6.
  step. rewrite Hrr6. unfold with_var. rewrite G6, Hed by discriminate. cbn [update_at].
  step. rewrite !G6 by discriminate. rewrite Hedl, Hd. cbn [slice_eval opt_int as_int]. rewrite py_slice_from.
  rewrite exec_block_nil. eexists. split; [reflexivity|]. split; [lk; reflexivity|]. split.
  - (* r5 is elem_dict but for the place of the second tag *)
    lk. unfold elem_dict. cbn [pf_pv pf_av pf_ty]. rewrite <- second_tag_at. reflexivity.
  - intros x H1 H2 H3 H4. rewrite !lookup_set_other by assumption. exact (G6 x H1 H2).
Qed.

(* what `while _edl and len(_d)` makes of a buffer R: one element per remainder at stride ELEMENT DESCRIPTOR LENGTH; a length of
   zero means no pass at all *)
Definition res_elems (F : pflags) (edl : nat) (R : bytes) : list pv :=
  map (elem_dict F) (suffixes (skipn edl) (if edl =? 0 then 0 else length R) R).

Lemma res_elems_loop f ρ pf vp va ty edl R :
  lookup "_r" ρ = Some (PDict pf) ->
  lookup "pvoltag" pf = Some vp -> lookup "avoltag" pf = Some va -> lookup "element_type" pf = Some (PInt ty) ->
  lookup "_edl" ρ = Some (PInt (Z.of_nat edl)) -> lookup "_d" ρ = Some (PBytes R) -> lookup "_ed" ρ = Some (PList []) ->
  length R <= f ->
  exists ρ', run all_tables py_program (S f) res_inner_loop ρ = ONorm ρ' /\
    lookup "_ed" ρ' = Some (PList (res_elems (mkPF (truthy vp) (truthy va) ty) edl R)) /\
    (forall x, x <> "_rr" -> x <> "_dd" -> x <> "_ed" -> x <> "_d" -> lookup x ρ' = lookup x ρ).
Proof.
  intros Hr Hpv Hav Hty Hedl Hd Hed Hf. set (F := mkPF _ _ _).
  destruct (consume all_tables py_program res_inner_cond res_inner_body (skipn edl) 0
              (fun k R' seen ρ' => (if edl =? 0 then k = 0 else length R' <= k) /\ lookup "_d" ρ' = Some (PBytes R') /\
                 lookup "_ed" ρ' = Some (PList (map (elem_dict F) seen)) /\
                 (forall x, x <> "_rr" -> x <> "_dd" -> x <> "_ed" -> x <> "_d" -> lookup x ρ' = lookup x ρ)))
    with (k := if edl =? 0 then 0 else length R) (R := R) (seen := @nil bytes) (f := f) (ρ := ρ) as (ρ' & E & _ & _ & Hed' & Fr').
  - (* the condition: true exactly when the length is not zero and something is left *)
    intros call k R' seen ρ' (Hk & Hd' & _ & Fr).
    cbn [res_inner_cond res_inner_loop while_body fn_body nth PF_res eval]. rewrite (Fr "_edl"), Hedl by discriminate. cbn [truthy].
    destruct (Nat.eqb_spec edl 0) as [->|Hne].
    + subst k. eexists. split; reflexivity.
    + destruct (Z.eqb_spec (Z.of_nat edl) 0); [lia|]. cbn [negb]. rewrite Hd'. cbn [len_eval truthy]. eexists. split; [reflexivity|].
      destruct R' as [|a R']; [now destruct k|]. destruct k; cbn [length] in Hk; [lia|].
      destruct (Z.eqb_spec (Z.of_nat (S (length R'))) 0); [lia|reflexivity].
  - intros f0 k R' seen ρ' _ Hne (Hk & Hd' & Hed' & Fr).
    assert (Hr' : lookup "_r" ρ' = Some (PDict pf)) by (rewrite Fr by discriminate; exact Hr).
    assert (Hedl' : lookup "_edl" ρ' = Some (PInt (Z.of_nat edl))) by (rewrite Fr by discriminate; exact Hedl).
    destruct (res_elem_step (call_with py_program (run all_tables py_program f0)) (run all_tables py_program f0) ρ' pf vp va ty edl R' (map (elem_dict F) seen)
                Hr' Hpv Hav Hty Hedl' Hd' Hed') as (ρ'' & E & Hd'' & Hed'' & Fr'').
    exists ρ''. split; [exact E|]. split; [|split; [exact Hd''|split]].
    + destruct (edl =? 0) eqn:E0; [discriminate|]. apply Nat.eqb_neq in E0. rewrite skipn_length. destruct R'; [congruence|cbn [length] in *; lia].
    + rewrite Hed'', map_app. reflexivity.
    + intros x H1 H2 H3 H4. rewrite Fr'' by assumption. apply Fr; assumption.
  - pose proof (suffixes_length (skipn edl) (if edl =? 0 then 0 else length R) R). destruct (edl =? 0); lia.
  - split; [destruct (edl =? 0); [reflexivity|apply le_n]|]. split; [exact Hd|]. split; [exact Hed|reflexivity].
  - exists ρ'. split; [exact E|]. split; [exact Hed'|exact Fr'].
Qed.
