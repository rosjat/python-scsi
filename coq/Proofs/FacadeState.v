(* Proofs/FacadeState.v — the state of a facade object: whatever sequence of attach / re-attach / block-size stores /
   command calls a program performs, the block size the command methods hand to the constructors is the one stored
   last.  The stores of every function of class SCSI are REGENERATED (Gen/FacadeTbl.facade_state_writes). *)
From Coq Require Import String.
From PS Require Import Base.Bytes Model.Converter Model.Facade Proofs.Dict.
Open Scope string_scope.

Lemma lookup_filter_other {A} (d : list (string * A)) k k' : k <> k' ->
  lookup k (filter (fun kv => negb (String.eqb (fst kv) k')) d) = lookup k d.
Proof. intros Hn. induction d as [|[k2 v2] d IH]; cbn; [reflexivity|].
  destruct (String.eqb_spec k2 k') as [->|Hn2]; cbn.
  - destruct (String.eqb_spec k k'); [contradiction|exact IH].
  - destruct (String.eqb_spec k k2); [reflexivity|exact IH]. Qed.

Definition untouched (ws : list (string * sx)) (a : string) : bool := forallb (fun w => negb (String.eqb (fst w) a)) ws.

Lemma apply_untouched ws a args st : untouched ws a = true -> lookup a (apply_writes ws args st) = lookup a st.
Proof. revert st. induction ws as [|[b e] ws IH]; intros st H; cbn in *; [reflexivity|].
  apply andb_prop in H. destruct H as [Hb Hr]. rewrite IH by exact Hr.
  destruct (String.eqb_spec b a) as [->|Hn]; [discriminate|].
  destruct (sx_eval st args e); [apply lookup_set_other|apply lookup_filter_other]; congruence. Qed.

Lemma filter_nil_untouched ws a : filter (fun w : string * sx => String.eqb (fst w) a) ws = [] -> untouched ws a = true.
Proof. induction ws as [|[b e] ws IH]; cbn; [reflexivity|]. destruct (String.eqb b a); [discriminate|]. exact IH. Qed.

Lemma apply_stores_param ws a p args st v : stores_param ws a p = true -> lookup p args = Some v ->
  lookup a (apply_writes ws args st) = Some v.
Proof. unfold stores_param. revert st. induction ws as [|[b e] ws IH]; intros st H Hp; cbn in *; [discriminate|].
  destruct (String.eqb_spec b a) as [->|Hn].
  - destruct e as [q| |]; try discriminate.
    destruct (filter (fun w => String.eqb (fst w) a) ws) eqn:Hf; [|discriminate].
    apply String.eqb_eq in H. subst q. rewrite apply_untouched by (apply filter_nil_untouched; exact Hf).
    cbn. rewrite Hp. apply lookup_set_same.
  - apply IH; assumption. Qed.

Lemma no_store_untouched ws a : no_store ws a = true -> untouched ws a = true.
Proof. unfold no_store, untouched. induction ws as [|w ws IH]; cbn; [reflexivity|]. intros H. apply andb_prop in H. destruct H as [H1 H2].
  apply andb_prop in H1. destruct H1 as [H1 _]. rewrite H1. exact (IH H2). Qed.

Definition op_ok (o : fop) : bool :=
  match o with FoMethod n => negb (String.eqb n "__init__") && negb (String.eqb n "blocksize.setter") | _ => true end.

Lemma other_function_keeps tbl name a : blocksize_state_ok tbl (SxAttr a) = true -> name <> "__init__" -> name <> "blocksize.setter" ->
  untouched (writes_of tbl name) a = true.
Proof. intros OK H1 H2. unfold blocksize_state_ok in OK. apply andb_prop in OK. destruct OK as [_ H].
  unfold writes_of. destruct (lookup name tbl) as [ws|] eqn:Hl; [|reflexivity].
  rewrite forallb_forall in H. specialize (H _ (lookup_In _ _ _ Hl)). cbn [fst snd] in H.
  destruct (String.eqb_spec name "__init__"); [contradiction|]. destruct (String.eqb_spec name "blocksize.setter"); [contradiction|].
  cbn in H. now apply no_store_untouched. Qed.

Theorem blocksize_is_last_stored tbl get : blocksize_state_ok tbl get = true ->
  forall ops st, forallb op_ok ops = true ->
  blocksize_seen get (fold_left (fstep tbl) ops st) = last_blocksize (blocksize_seen get st) ops.
Proof.
  intros OK. destruct get as [|a|]; try (unfold blocksize_state_ok in OK; discriminate).
  assert (Hi : stores_param (writes_of tbl "__init__") a "blocksize" = true /\ stores_param (writes_of tbl "blocksize.setter") a "value" = true).
  { pose proof OK as OK'. unfold blocksize_state_ok in OK'. apply andb_prop in OK'. destruct OK' as [H _]. apply andb_prop in H. exact H. }
  destruct Hi as [Hinit Hset].
  induction ops as [|o ops IH]; intros st Hok; [reflexivity|]. cbn [fold_left last_blocksize forallb] in *.
  apply andb_prop in Hok. destruct Hok as [Ho Hr]. rewrite IH by exact Hr. clear IH.
  unfold blocksize_seen, sx_eval.
  destruct o as [dev bs|dev|v|name]; cbn [fstep].
  - erewrite apply_stores_param; [reflexivity|exact Hinit|]. cbn. reflexivity.
  - rewrite apply_untouched; [reflexivity|]. apply other_function_keeps; [exact OK|discriminate|discriminate].
  - erewrite apply_stores_param; [reflexivity|exact Hset|]. cbn. reflexivity.
  - cbn in Ho. apply andb_prop in Ho. destruct Ho as [H1 H2].
    rewrite apply_untouched; [reflexivity|]. apply other_function_keeps; [exact OK| |].
    + intros ->. discriminate. + intros ->. discriminate.
Qed.
