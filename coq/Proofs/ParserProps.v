(* Proofs/ParserProps.v — (1) a mask table entry that denotes the standard's (byte, msb, width) makes decode_bits
   report exactly what the standard's reader finds there, for every buffer; (2) a fixed-stride descriptor list
   is returned whole, in order, and nothing beyond the reported length. *)
From Coq Require Import String.
From PS Require Import Base.Bytes Base.Result Model.Converter Model.Parser Proofs.VarListProps.
Open Scope string_scope.
Open Scope N_scope.

(* ---------- (1) fields ---------- *)

Definition mask_at (mk o b m w : N) : bool :=
  match ctz mk with
  | Some z =>
      (o =? b) && Nat.eqb (nbytes mk) (span m w) && (m <? 8) && (1 <=? w)
      && ((7 - m) + w <=? 8 * N.of_nat (span m w))
      && (z =? 8 * N.of_nat (span m w) - (7 - m) - w) && (N.shiftr mk z =? N.ones w)
  | None => false
  end.

Definition field_ok (L : layout) (fld : string * N * N * N) : bool :=
  let '(k, b, m, w) := fld in
  match lookup k L with
  | Some (Mask mk o) => mask_at mk o b m w
  | Some (Blob u o len) => (o =? b) && (m =? 7) && (8 * (len * u) =? w)
  | None => false
  end.

Definition fields_ok (L : layout) (flds : list (string * N * N * N)) : bool := forallb (field_ok L) flds.

Lemma decode1_std data mk o b m w :
  mask_at mk o b m w = true -> decode1 data (Mask mk o) = Ok (VI (std_read data b m w)).
Proof.
  unfold mask_at, decode1. destruct (ctz mk) as [z|]; [|discriminate]. intros H.
  rewrite !andb_true_iff, !N.eqb_eq, Nat.eqb_eq in H. destruct H as ((((((-> & En) & _) & _) & _) & ->) & Es).
  cbv zeta. unfold std_read. now rewrite En, Es, N.land_ones, N.shiftr_div_pow2.
Qed.

Lemma decode1_std_blob data u o len b m w :
  (o =? b) && (m =? 7) && (8 * (len * u) =? w) = true ->
  decode1 data (Blob u o len) = Ok (VB (std_read_bytes data b w)).
Proof.
  rewrite !andb_true_iff, !N.eqb_eq. intros [[-> _] <-]. unfold decode1, std_read_bytes.
  now rewrite (N.mul_comm 8), N.div_mul.
Qed.

Lemma decode_bits_lookup data : forall L d k f,
  decode_bits data L = Ok d -> lookup k L = Some f ->
  exists v, decode1 data f = Ok v /\ lookup k d = Some v.
Proof.
  induction L as [|[k0 f0] L IH]; intros d k f Hd Hl; [discriminate|].
  cbn [decode_bits] in Hd. destruct (decode1 data f0) as [v0|] eqn:E0; [|discriminate].
  destruct (decode_bits data L) as [rest|] eqn:ER; [|discriminate]. inversion Hd; subst d.
  cbn [lookup] in *. destruct (String.eqb k k0).
  - inversion Hl; subst f0. exists v0. auto.
  - eapply IH; eauto.
Qed.

(* every field of the format is reported with the value the standard's reader finds at its position *)
Theorem table_reads_standard L flds :
  fields_ok L flds = true ->
  forall data d, decode_bits data L = Ok d ->
  forall k b m w, In (k, b, m, w) flds ->
    lookup k d = Some (VI (std_read data b m w)) \/ lookup k d = Some (VB (std_read_bytes data b w)).
Proof.
  intros Hok data d Hd k b m w Hin. unfold fields_ok in Hok. rewrite forallb_forall in Hok.
  specialize (Hok _ Hin). unfold field_ok in Hok.
  destruct (lookup k L) as [f|] eqn:Hl; [|discriminate].
  destruct (decode_bits_lookup data L d k f Hd Hl) as (v & Hv & Hlk). rewrite Hlk.
  destruct f as [mk o|u o len].
  - left. rewrite (decode1_std data mk o b m w Hok) in Hv. now inversion Hv.
  - right. rewrite (decode1_std_blob data u o len b m w Hok) in Hv. now inversion Hv.
Qed.

Definition masks_nonzero (L : layout) : bool :=
  forallb (fun kf => match snd kf with Mask mk _ => match ctz mk with Some _ => true | None => false end | Blob _ _ _ => true end) L.

Lemma decode_bits_total data L : masks_nonzero L = true -> exists d, decode_bits data L = Ok d.
Proof.
  induction L as [|[k f] L IH]; intros H; [now exists []|].
  cbn [masks_nonzero forallb snd] in H. apply andb_prop in H as [Hf H]. destruct (IH H) as [d Hd].
  cbn [decode_bits]. rewrite Hd. destruct f as [mk o|u o len]; cbn [decode1].
  - destruct (ctz mk); [|discriminate]. eexists. reflexivity.
  - eexists. reflexivity.
Qed.

(* ---------- (2) descriptor lists ---------- *)

Lemma slice_mid (pre x post : bytes) a b : length pre = a -> length x = (b - a)%nat -> slice (pre ++ x ++ post)%list a b = x.
Proof. intros <- Hx. unfold slice. rewrite skipn_app_exact, <- Hx. apply firstn_app_exact. Qed.

Lemma chunks_step stride fuel (d : bytes) : d <> [] ->
  chunks stride (S fuel) d =
  match chunks stride fuel (skipn stride d) with Some cs => Some (firstn stride d :: cs) | None => None end.
Proof. destruct d; [contradiction|reflexivity]. Qed.

Lemma chunks_concat stride (descs : list bytes) : (0 < stride)%nat ->
  Forall (fun d => length d = stride) descs ->
  forall fuel, (length descs <= fuel)%nat -> chunks stride fuel (concat descs) = Some descs.
Proof.
  intros Hs H. induction H as [|d ds Hd Hds IH]; intros fuel Hf; [destruct fuel; reflexivity|].
  cbn [concat]. destruct fuel as [|fuel]; [cbn in Hf; lia|].
  rewrite chunks_step by (destruct d; [cbn in Hd; lia|discriminate]). subst stride.
  rewrite skipn_app_exact, firstn_app_exact, IH by (cbn [length] in Hf; lia). reflexivity.
Qed.

(* a response laid out as: header of lp_start bytes, the descriptors, anything after them; the length field says
   where the descriptors end.  Every descriptor is returned whole and in order, nothing beyond is reported. *)
Theorem parse_list_exact p (hdr : bytes) (descs : list bytes) (trail : bytes) :
  (0 < lp_stride p)%nat -> length hdr = lp_start p -> (lp_len_b p <= lp_start p)%nat ->
  Forall (fun d => length d = lp_stride p) descs ->
  (N.to_nat (ba_to_int (slice hdr (lp_len_a p) (lp_len_b p))) + lp_bias p = lp_start p + lp_stride p * length descs)%nat ->
  parse_list p (hdr ++ concat descs ++ trail)%list = Some descs.
Proof.
  intros Hs Hh Hlb Hd Hlen. unfold parse_list, list_body.
  pose proof (concat_length _ _ Hd) as Hcl.
  rewrite (slice_app_prefix hdr _ (lp_len_a p) (lp_len_b p)) by lia.
  assert (Hend : N.to_nat (N.min (ba_to_int (slice hdr (lp_len_a p) (lp_len_b p)) + N.of_nat (lp_bias p))
                                 (N.of_nat (length (hdr ++ concat descs ++ trail)%list))) = (lp_start p + lp_stride p * length descs)%nat).
  { rewrite !app_length, Hcl, Hh. lia. }
  rewrite Hend, slice_mid by lia. apply chunks_concat; try assumption.
  rewrite !app_length, Hcl. destruct (lp_stride p); [lia|]. nia.
Qed.
