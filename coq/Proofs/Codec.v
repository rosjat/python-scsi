(* Proofs/Codec.v — single-field laws of the bit-field codec, at the bit level.
   For every buffer size, every contiguous mask at any alignment, every offset,
   every in-range value.  No bound anywhere.  At the end: one step of the loop that counts the bytes of a mask,
   and what encode1 preserves. *)
From PS Require Import Base.Bytes Base.Result Model.Converter.

(* ------------------------------------------------------------------ *)
(* geometry of a field inside an n-byte buffer seen as one big-endian  *)
(* integer X = ba_to_int buf: the field is bits [lo, lo+w) of X.       *)

Definition contiguous (m : N) : bool :=
  match ctz m with
  | None => false
  | Some z => N.shiftr m z =? N.ones (N.size (N.shiftr m z))
  end.

Definition mwidth (m : N) : N :=
  match ctz m with None => 0 | Some z => N.size (N.shiftr m z) end.

Record geom := mkGeom { g_lo : N; g_w : N }.

Definition geom_of (n : nat) (f : fdesc) : option geom :=
  match f with
  | Mask m o =>
      match ctz m with
      | None => None
      | Some z =>
          if contiguous m && (N.to_nat o + nbytes m <=? n)%nat
          then Some (mkGeom (8 * N.of_nat (n - N.to_nat o - nbytes m) + z) (mwidth m))
          else None
      end
  | Blob u o len =>
      if (N.to_nat (o + len * u) <=? n)%nat
      then Some (mkGeom (8 * N.of_nat (n - N.to_nat (o + len * u))) (8 * (len * u)))
      else None
  end.

(* the integer carried by a value of the right kind for field f *)
Definition vint (f : fdesc) (v : value) : option N :=
  match f, v with
  | Mask _ _, VI x => Some x
  | Blob u _ len, VB b =>
      if (length b =? N.to_nat (len * u))%nat && bytes_okb b then Some (ba_to_int b) else None
  | _, _ => None
  end.

Definition in_field (g : geom) (j : N) : bool := (g_lo g <=? j) && (j <? g_lo g + g_w g).

Lemma in_field_spec g j : reflect (g_lo g <= j < g_lo g + g_w g) (in_field g j).
Proof.
  apply iff_reflect. unfold in_field. now rewrite andb_true_iff, N.leb_le, N.ltb_lt.
Qed.

Lemma in_field_lo g i : i < g_w g -> in_field g (g_lo g + i) = true.
Proof. intros H. destruct (in_field_spec g (g_lo g + i)); [reflexivity|lia]. Qed.

(* ------------------------------------------------------------------ *)
(* facts about ctz / nbytes / width                                    *)

Lemma pos_ctz_bit p : N.testbit (Npos p) (pos_ctz p) = true.
Proof.
  induction p as [p IH|p IH|]; cbn [pos_ctz]; try reflexivity.
  change (Npos p~0) with (2 * Npos p). rewrite N.testbit_even_succ by lia. exact IH.
Qed.

Lemma pos_ctz_low p i : i < pos_ctz p -> N.testbit (Npos p) i = false.
Proof.
  revert i; induction p as [p IH|p IH|]; cbn [pos_ctz]; intros i Hi; try lia.
  change (Npos p~0) with (2 * Npos p).
  destruct (N.eq_dec i 0) as [->|Hne]; [apply N.testbit_even_0|].
  replace i with (N.succ (N.pred i)) by lia. rewrite N.testbit_even_succ by lia. apply IH. lia.
Qed.

Lemma ctz_bit m z : ctz m = Some z -> N.testbit m z = true.
Proof. destruct m as [|p]; cbn [ctz]; intros H; inversion H; subst. apply pos_ctz_bit. Qed.

Lemma ctz_low m z i : ctz m = Some z -> i < z -> N.testbit m i = false.
Proof. destruct m as [|p]; cbn [ctz]; intros H; inversion H; subst. apply pos_ctz_low. Qed.

Lemma ctz_shr_nz m z : ctz m = Some z -> N.shiftr m z <> 0.
Proof.
  intros H E. pose proof (ctz_bit m z H) as B.
  assert (B0 : N.testbit (N.shiftr m z) 0 = true) by (rewrite N.shiftr_spec by lia; now rewrite N.add_0_l).
  rewrite E in B0. cbn in B0. discriminate.
Qed.

Lemma ctz_le_log2 m z : ctz m = Some z -> z <= N.log2 m.
Proof.
  intros H. pose proof (ctz_bit m z H) as B.
  destruct (N.le_gt_cases z (N.log2 m)) as [|G]; [assumption|].
  rewrite N.bits_above_log2 in B by assumption. discriminate.
Qed.

Lemma size_eq m : m <> 0 -> N.size m = N.succ (N.log2 m).
Proof. intros H. destruct m; [congruence|]. apply N.size_log2. discriminate. Qed.

Lemma width_plus_ctz m z : ctz m = Some z -> mwidth m + z = N.size m.
Proof.
  intros H. unfold mwidth. rewrite H.
  assert (Hm : m <> 0) by (destruct m; [discriminate|discriminate]).
  rewrite (size_eq _ (ctz_shr_nz m z H)), (size_eq m Hm), N.log2_shiftr.
  pose proof (ctz_le_log2 m z H). lia.
Qed.

Lemma size_le_nbytes m : N.size m <= 8 * N.of_nat (nbytes m).
Proof.
  unfold nbytes. rewrite N2Nat.id.
  pose proof (N.div_mod (N.size m + 7) 8 ltac:(lia)) as D.
  pose proof (N.mod_lt (N.size m + 7) 8 ltac:(lia)). lia.
Qed.

Lemma width_fits m z : ctz m = Some z -> mwidth m + z <= 8 * N.of_nat (nbytes m).
Proof. intros H. rewrite (width_plus_ctz m z H). apply size_le_nbytes. Qed.

Lemma nbytes_pos m : (1 <= nbytes m)%nat.
Proof. unfold nbytes. lia. Qed.

(* ------------------------------------------------------------------ *)
(* byte-level decomposition                                            *)

Lemma testbit_3 pre mid post j : bytes_ok mid -> bytes_ok post ->
  let p := 8 * N.of_nat (length post) in let k := 8 * N.of_nat (length mid) in
  N.testbit (ba_to_int (pre ++ mid ++ post)) j =
    if j <? p then N.testbit (ba_to_int post) j
    else if j - p <? k then N.testbit (ba_to_int mid) (j - p)
    else N.testbit (ba_to_int pre) (j - p - k).
Proof.
  intros Hm Hp p k. rewrite app_assoc, !ba_to_int_app, !pow256.
  pose proof (ba_to_int_bound post Hp) as Bp. rewrite pow256 in Bp.
  pose proof (ba_to_int_bound mid Hm) as Bm. rewrite pow256 in Bm.
  fold p k in Bp, Bm |- *.
  rewrite (testbit_concat _ _ p j Bp).
  destruct (j <? p); [reflexivity|].
  apply (testbit_concat _ _ k (j - p) Bm).
Qed.

Lemma slice_add r o k : slice r o (o + k) = firstn k (skipn o r).
Proof. unfold slice. f_equal. lia. Qed.

(* the k bytes at offset o of r are bits [p, p + 8k) of its integer, p = 8 (length r - o - k) *)
Lemma testbit_window r o k j : (o + k <= length r)%nat -> bytes_ok r ->
  let p := 8 * N.of_nat (length r - o - k) in
  N.testbit (ba_to_int r) j =
    if j <? p then N.testbit (ba_to_int (skipn (o + k) r)) j
    else if j - p <? 8 * N.of_nat k then N.testbit (ba_to_int (slice r o (o + k))) (j - p)
    else N.testbit (ba_to_int (firstn o r)) (j - p - 8 * N.of_nat k).
Proof.
  intros Hlen Hr p.
  assert (E : r = firstn o r ++ slice r o (o + k) ++ skipn (o + k) r)
    by now rewrite slice_add, <- skipn_skipn', !firstn_skipn.
  rewrite E at 1. rewrite testbit_3 by auto using bytes_ok_slice, bytes_ok_skipn.
  rewrite slice_length, skipn_length by lia.
  replace (o + k - o)%nat with k by lia. now replace (length r - (o + k))%nat with (length r - o - k)%nat by lia.
Qed.

Lemma testbit_slice r o k i : (o + k <= length r)%nat -> bytes_ok r ->
  N.testbit (ba_to_int (slice r o (o + k))) i =
  (i <? 8 * N.of_nat k) && N.testbit (ba_to_int r) (8 * N.of_nat (length r - o - k) + i).
Proof.
  intros Hlen Hr. destruct (N.ltb_spec i (8 * N.of_nat k)) as [Hi|Hi]; cbn [andb].
  - rewrite (testbit_window r o k _ Hlen Hr). set (p := 8 * N.of_nat (length r - o - k)).
    destruct (N.ltb_spec (p + i) p); [lia|]. replace (p + i - p) with i by lia.
    destruct (N.ltb_spec i (8 * N.of_nat k)); [reflexivity|lia].
  - pose proof (ba_to_int_bound _ (bytes_ok_slice r o (o + k) Hr)) as B.
    rewrite slice_length, pow256 in B by lia. replace (o + k - o)%nat with k in B by lia.
    now apply bits_above with (8 * N.of_nat k).
Qed.

Lemma testbit_splice r o k mid j : (o + k <= length r)%nat -> bytes_ok r -> length mid = k -> bytes_ok mid ->
  let p := 8 * N.of_nat (length r - o - k) in
  N.testbit (ba_to_int (firstn o r ++ mid ++ skipn (o + k) r)) j =
    if in_field (mkGeom p (8 * N.of_nat k)) j then N.testbit (ba_to_int mid) (j - p)
    else N.testbit (ba_to_int r) j.
Proof.
  intros Hlen Hr Lm Om p. rewrite testbit_3, (testbit_window r o k j Hlen Hr) by auto using bytes_ok_skipn.
  rewrite Lm, skipn_length. replace (length r - (o + k))%nat with (length r - o - k)%nat by lia. fold p.
  unfold in_field. cbn [g_lo g_w].
  destruct (N.ltb_spec j p), (N.leb_spec p j); try lia; [reflexivity|]. cbn [andb].
  destruct (N.ltb_spec (j - p) (8 * N.of_nat k)), (N.ltb_spec j (p + 8 * N.of_nat k)); try lia; reflexivity.
Qed.

(* ------------------------------------------------------------------ *)
(* xor_at at the integer level (python: result[off+i] ^= v[i])          *)

Lemma xor_list_length a b : length (xor_list a b) = length a.
Proof. revert b; induction a as [|x a IH]; intros [|y b]; cbn [xor_list length]; auto. Qed.

Lemma xor_list_ok a b : bytes_ok a -> bytes_ok b -> bytes_ok (xor_list a b).
Proof.
  intros Ha; revert b; induction Ha as [|x a Hx Ha IH]; intros b Hb; [constructor|].
  destruct b as [|y b]; cbn [xor_list]; [now constructor|].
  inversion Hb as [|? ? Hy Hb']; subst. constructor; [|now apply IH].
  change 256 with (2^8). apply lxor_lt; assumption.
Qed.

Lemma xor_list_int a b : length a = length b -> bytes_ok a -> bytes_ok b ->
  ba_to_int (xor_list a b) = N.lxor (ba_to_int a) (ba_to_int b).
Proof.
  revert b; induction a as [|x a IH]; intros [|y b] Hl Ha Hb; try discriminate; [reflexivity|].
  cbn [xor_list ba_to_int]. rewrite xor_list_length.
  injection Hl as Hl. inversion Ha as [|? ? Hx Ha']; inversion Hb as [|? ? Hy Hb']; subst.
  rewrite IH by assumption. rewrite <- Hl.
  pose proof (ba_to_int_bound a Ha') as Ba. pose proof (ba_to_int_bound b Hb') as Bb. rewrite <- Hl in Bb.
  rewrite pow256 in *. symmetry. now apply lxor_split.
Qed.

Lemma xor_at_length r off v : length (xor_at r off v) = length r.
Proof.
  unfold xor_at. rewrite !app_length, xor_list_length, !firstn_length, !skipn_length. lia.
Qed.

Lemma xor_at_ok r off v : bytes_ok r -> bytes_ok v -> bytes_ok (xor_at r off v).
Proof.
  intros Hr Hv. unfold xor_at. apply bytes_ok_app; split; [now apply bytes_ok_firstn|].
  apply bytes_ok_app; split; [|now apply bytes_ok_skipn].
  apply xor_list_ok; [now apply bytes_ok_firstn, bytes_ok_skipn|assumption].
Qed.

Lemma testbit_shifted x lo j :
  N.testbit (x * 2 ^ lo) j = if lo <=? j then N.testbit x (j - lo) else false.
Proof.
  destruct (N.leb_spec lo j) as [H|H].
  - now rewrite N.mul_pow2_bits_high.
  - now rewrite N.mul_pow2_bits_low.
Qed.

Theorem xor_at_int r off v :
  (off + length v <= length r)%nat -> bytes_ok r -> bytes_ok v ->
  ba_to_int (xor_at r off v) =
  N.lxor (ba_to_int r) (ba_to_int v * 256 ^ N.of_nat (length r - off - length v)).
Proof.
  intros Hlen Hr Hv. unfold xor_at. rewrite <- slice_add.
  set (mid := slice r off (off + length v)).
  assert (Lm : length mid = length v) by (unfold mid; rewrite slice_length; lia).
  assert (Om : bytes_ok mid) by now apply bytes_ok_slice.
  apply N.bits_inj. intros j.
  rewrite (testbit_splice r off (length v) (xor_list mid v) j)
    by (rewrite ?xor_list_length; auto using xor_list_ok).
  rewrite N.lxor_spec, pow256, testbit_shifted. set (p := 8 * N.of_nat (length r - off - length v)).
  destruct (in_field_spec (mkGeom p (8 * N.of_nat (length v))) j) as [[H1 H2]|H]; cbn [g_lo g_w] in *.
  - rewrite xor_list_int, N.lxor_spec by assumption. unfold mid. rewrite testbit_slice by assumption.
    destruct (N.leb_spec p j); [|lia]. destruct (N.ltb_spec (j - p) (8 * N.of_nat (length v))); [|lia].
    cbn [andb]. do 2 f_equal. lia.
  - destruct (N.leb_spec p j); [|now rewrite xorb_false_r].
    pose proof (ba_to_int_bound v Hv) as B. rewrite pow256 in B.
    rewrite (bits_above _ _ (j - p) B) by lia. now rewrite xorb_false_r.
Qed.

(* ------------------------------------------------------------------ *)
(* geom_of and vint, field kind by field kind                          *)

Lemma geom_of_mask n m o g : geom_of n (Mask m o) = Some g ->
  exists z, ctz m = Some z /\ N.shiftr m z = N.ones (mwidth m) /\ (N.to_nat o + nbytes m <= n)%nat /\
            g = mkGeom (8 * N.of_nat (n - N.to_nat o - nbytes m) + z) (mwidth m).
Proof.
  cbn [geom_of]. unfold contiguous, mwidth. destruct (ctz m) as [z|]; [|discriminate].
  destruct (N.eqb_spec (N.shiftr m z) (N.ones (N.size (N.shiftr m z)))) as [Hc|]; [|discriminate].
  destruct (Nat.leb_spec (N.to_nat o + nbytes m) n) as [Hb|]; [|discriminate].
  intros H. inversion H. now exists z.
Qed.

Lemma geom_of_blob n u o len g : geom_of n (Blob u o len) = Some g ->
  N.to_nat (o + len * u) = (N.to_nat o + N.to_nat (len * u))%nat /\
  (N.to_nat o + N.to_nat (len * u) <= n)%nat /\
  g = mkGeom (8 * N.of_nat (n - N.to_nat o - N.to_nat (len * u))) (8 * N.of_nat (N.to_nat (len * u))).
Proof.
  cbn [geom_of]. destruct (Nat.leb_spec (N.to_nat (o + len * u)) n) as [Hb|]; [|discriminate].
  intros H. inversion H. repeat split; [lia..|]. f_equal; lia.
Qed.

Lemma vint_mask m o v x : vint (Mask m o) v = Some x -> v = VI x.
Proof. destruct v; cbn [vint]; congruence. Qed.

Lemma vint_VB u o len b : length b = N.to_nat (len * u) -> bytes_ok b ->
  vint (Blob u o len) (VB b) = Some (ba_to_int b).
Proof. intros L O. apply bytes_okb_spec in O. cbn [vint]. now rewrite L, Nat.eqb_refl, O. Qed.

Lemma vint_blob u o len v x : vint (Blob u o len) v = Some x ->
  exists b, v = VB b /\ length b = N.to_nat (len * u) /\ bytes_ok b /\ x = ba_to_int b.
Proof.
  destruct v as [|b]; cbn [vint]; [discriminate|].
  destruct (Nat.eqb_spec (length b) (N.to_nat (len * u))) as [L|]; [|discriminate].
  destruct (bytes_okb b) eqn:O; [|discriminate]. apply bytes_okb_spec in O.
  intros H. inversion H. now exists b.
Qed.

(* ------------------------------------------------------------------ *)
(* what encoding one field does to the bits of the buffer *)

Definition write_bit (f : fdesc) (g : geom) (x : N) (old : bool) (j : N) : bool :=
  match f with
  | Mask _ _ => xorb old (N.testbit x (j - g_lo g))
  | Blob _ _ _ => N.testbit x (j - g_lo g)
  end.

Theorem encode1_bits n r f g v x :
  geom_of n f = Some g -> length r = n -> bytes_ok r ->
  vint f v = Some x -> x < 2 ^ g_w g ->
  exists r', encode1 r f v = Ok r' /\ length r' = n /\ bytes_ok r' /\
    forall j, N.testbit (ba_to_int r') j =
              if in_field g j then write_bit f g x (N.testbit (ba_to_int r) j) j
              else N.testbit (ba_to_int r) j.
Proof.
  intros Hg Hlen Hr Hv Hx. subst n. destruct f as [m o|u o len].
  - (* mask field *)
    apply vint_mask in Hv as ->.
    destruct (geom_of_mask _ _ _ _ Hg) as (z & Hz & _ & Hb & ->). cbn [g_lo g_w] in *.
    cbn [encode1]. rewrite Hz. destruct (Nat.leb_spec (N.to_nat o + nbytes m) (length r)); [|lia].
    set (k := nbytes m) in *. set (vb := int_to_ba (N.shiftl x z) k).
    assert (Lv : length vb = k) by apply int_to_ba_length.
    assert (Ov : bytes_ok vb) by apply int_to_ba_ok.
    assert (Iv : ba_to_int vb = x * 2 ^ z).
    { unfold vb. rewrite ba_to_int_to_ba, N.shiftl_mul_pow2. apply N.mod_small.
      rewrite pow256. apply N.lt_le_trans with (2 ^ (mwidth m + z)).
      - rewrite N.pow_add_r. apply N.mul_lt_mono_pos_r; [apply N.neq_0_lt_0, N.pow_nonzero; lia|assumption].
      - apply N.pow_le_mono_r; [lia|now apply width_fits]. }
    exists (xor_at r (N.to_nat o) vb). split; [reflexivity|].
    split; [apply xor_at_length|]. split; [now apply xor_at_ok|].
    intros j. rewrite xor_at_int by (assumption || lia).
    rewrite N.lxor_spec, Iv, Lv, pow256, <- N.mul_assoc, <- N.pow_add_r, testbit_shifted, N.add_comm.
    set (lo := 8 * N.of_nat (length r - N.to_nat o - k) + z).
    unfold in_field, write_bit. cbn [g_lo g_w].
    destruct (N.leb_spec lo j) as [Hlo|Hlo]; cbn [andb].
    + destruct (N.ltb_spec j (lo + mwidth m)) as [Hhi|Hhi]; [reflexivity|].
      rewrite (bits_above x (mwidth m) (j - lo)) by (assumption || lia). now rewrite xorb_false_r.
    + now rewrite xorb_false_r.
  - (* blob field: python slice assignment *)
    apply vint_blob in Hv as (b & -> & Lb & Ob & ->).
    destruct (geom_of_blob _ _ _ _ _ Hg) as (Ho & Hb & ->).
    cbn [encode1]. rewrite Ho. set (k := N.to_nat (len * u)) in *.
    exists (firstn (N.to_nat o) r ++ b ++ skipn (N.to_nat o + k) r). split; [reflexivity|].
    split; [rewrite !app_length, firstn_length, skipn_length; lia|].
    split; [repeat (apply bytes_ok_app; split); auto using bytes_ok_firstn, bytes_ok_skipn|].
    intros j. now rewrite (testbit_splice r (N.to_nat o) k b j Hb Hr Lb Ob).
Qed.

(* ------------------------------------------------------------------ *)
(* what decoding one field reads *)

Lemma testbit_divmod X lo w i : N.testbit ((X / 2 ^ lo) mod 2 ^ w) i = (i <? w) && N.testbit X (lo + i).
Proof.
  destruct (N.ltb_spec i w) as [Hi|Hi]; cbn [andb].
  - rewrite N.mod_pow2_bits_low by assumption. rewrite N.div_pow2_bits. f_equal. lia.
  - now rewrite N.mod_pow2_bits_high.
Qed.

Theorem decode1_bits n r f g :
  geom_of n f = Some g -> length r = n -> bytes_ok r ->
  exists v x, decode1 r f = Ok v /\ vint f v = Some x /\ x < 2 ^ g_w g /\
    forall i, N.testbit x i = (i <? g_w g) && N.testbit (ba_to_int r) (g_lo g + i).
Proof.
  intros Hg Hlen Hr. subst n. destruct f as [m o|u o len].
  - (* (window >> z) & (mask >> z), the shifted mask being 2^w - 1 *)
    destruct (geom_of_mask _ _ _ _ Hg) as (z & Hz & Hc & Hb & ->). cbn [g_lo g_w].
    cbn [decode1]. rewrite Hz, Hc, N.land_ones, N.shiftr_div_pow2.
    eexists (VI _), _. split; [reflexivity|]. split; [reflexivity|].
    split; [apply N.mod_lt, N.pow_nonzero; lia|].
    intros i. rewrite testbit_divmod, testbit_slice by assumption.
    pose proof (width_fits m z Hz).
    destruct (N.ltb_spec i (mwidth m)); [|reflexivity].
    destruct (N.ltb_spec (z + i) (8 * N.of_nat (nbytes m))); [|lia]. cbn [andb]. f_equal. lia.
  - destruct (geom_of_blob _ _ _ _ _ Hg) as (Ho & Hb & ->). cbn [g_lo g_w decode1]. rewrite Ho.
    set (k := N.to_nat (len * u)) in *. set (mid := slice r (N.to_nat o) (N.to_nat o + k)).
    assert (Lm : length mid = k) by (unfold mid; rewrite slice_length; lia).
    assert (Om : bytes_ok mid) by now apply bytes_ok_slice.
    exists (VB mid), (ba_to_int mid). split; [reflexivity|]. split; [now apply vint_VB|].
    split; [rewrite <- Lm, <- pow256; now apply ba_to_int_bound|].
    intros i. now apply testbit_slice.
Qed.

Lemma bytes_eq_of_int a b : length a = length b -> bytes_ok a -> bytes_ok b ->
  ba_to_int a = ba_to_int b -> a = b.
Proof.
  intros Hl Ha Hb E. rewrite <- (int_to_ba_to_int a Ha), <- (int_to_ba_to_int b Hb). congruence.
Qed.

Lemma vint_inj f v v' x : vint f v = Some x -> vint f v' = Some x -> v = v'.
Proof.
  destruct f as [m o|u o len]; intros H1 H2.
  - apply vint_mask in H1, H2. congruence.
  - apply vint_blob in H1 as (a & -> & La & Oa & Ea), H2 as (b & -> & Lb & Ob & Eb).
    f_equal. apply bytes_eq_of_int; congruence.
Qed.

Lemma decode1_unique n r f g v x :
  geom_of n f = Some g -> length r = n -> bytes_ok r -> vint f v = Some x ->
  (forall i, N.testbit x i = (i <? g_w g) && N.testbit (ba_to_int r) (g_lo g + i)) ->
  decode1 r f = Ok v.
Proof.
  intros Hg Hlen Hr Hv Hx. destruct (decode1_bits n r f g Hg Hlen Hr) as (v' & x' & D & V & _ & B).
  rewrite D. f_equal. apply (vint_inj f v' v x'); [assumption|].
  rewrite Hv. f_equal. apply N.bits_inj. intros i. now rewrite B, Hx.
Qed.

(* decoding a field looks at the field's bits only *)
Lemma decode1_ext n r1 r2 f g :
  geom_of n f = Some g -> length r1 = n -> bytes_ok r1 -> length r2 = n -> bytes_ok r2 ->
  (forall j, in_field g j = true -> N.testbit (ba_to_int r1) j = N.testbit (ba_to_int r2) j) ->
  decode1 r1 f = decode1 r2 f.
Proof.
  intros Hg L1 O1 L2 O2 H. destruct (decode1_bits n r2 f g Hg L2 O2) as (v & x & D & V & _ & B).
  rewrite D. apply (decode1_unique n r1 f g v x); try assumption.
  intros i. rewrite B. destruct (N.ltb_spec i (g_w g)); [|reflexivity].
  cbn [andb]. symmetry. now apply H, in_field_lo.
Qed.

(* ------------------------------------------------------------------ *)
(* T10 "byte / bit" addressing:  bit j of the big-endian integer is bit (j mod 8) of
   byte number  n-1-j/8  of the buffer. *)
Theorem bit_view l j : bytes_ok l -> j < 8 * N.of_nat (length l) ->
  N.testbit (ba_to_int l) j = N.testbit (nth (length l - 1 - N.to_nat (j / 8)) l 0) (j mod 8).
Proof.
  intros Hl. revert j. induction Hl as [|b r Hb Hr IH]; intros j Hj; [cbn in Hj; lia|].
  cbn [ba_to_int length]. cbn [length] in Hj. rewrite Nat2N.inj_succ in Hj. rewrite pow256.
  pose proof (ba_to_int_bound r Hr) as Br. rewrite pow256 in Br.
  rewrite (testbit_concat _ _ _ j Br).
  pose proof (N.div_mod j 8 ltac:(lia)) as D. pose proof (N.mod_lt j 8 ltac:(lia)) as M.
  destruct (N.ltb_spec j (8 * N.of_nat (length r))) as [Hlt|Hge].
  - rewrite IH by assumption.
    assert (Hq0 : j / 8 < N.of_nat (length r)) by (apply N.div_lt_upper_bound; lia).
    assert (Hq : (N.to_nat (j / 8) < length r)%nat) by lia.
    replace (S (length r) - 1 - N.to_nat (j / 8))%nat with (S (length r - 1 - N.to_nat (j / 8)))%nat by lia.
    reflexivity.
  - assert (Hq1 : j / 8 < N.of_nat (length r) + 1) by (apply N.div_lt_upper_bound; lia).
    assert (Hq2 : N.of_nat (length r) <= j / 8) by (apply N.div_le_lower_bound; lia).
    assert (Hq : j / 8 = N.of_nat (length r)) by lia.
    rewrite Hq, Nat2N.id. replace (S (length r) - 1 - length r)%nat with 0%nat by lia.
    cbn [nth]. f_equal. lia.
Qed.

(* behaviour outside the hypotheses of the laws (so the totalised model cannot make a law true
   for the wrong reason) *)
Lemma encode_mask_zero r o v : encode1 r (Mask 0 o) (VI v) = Raise Diverges.
Proof. reflexivity. Qed.
Lemma decode_mask_zero r o : decode1 r (Mask 0 o) = Raise Diverges.
Proof. reflexivity. Qed.
Lemma encode_out_of_bounds r m o v z : ctz m = Some z ->
  (length r < N.to_nat o + nbytes m)%nat -> encode1 r (Mask m o) (VI v) = Raise IndexError.
Proof.
  intros Hz Hlt. cbn [encode1]. rewrite Hz.
  destruct (Nat.leb_spec (N.to_nat o + nbytes m) (length r)); [lia|reflexivity].
Qed.

(* ---------- the byte count of a mask, one step of its loop; what encode1 preserves ---------- *)
Local Open Scope nat_scope.

Lemma nbytes_step m : nbytes m = if (m <=? 255)%N then 1 else S (nbytes (N.shiftr m 8)).
Proof.
  unfold nbytes. destruct (N.leb_spec m 255) as [H|H].
  - destruct (N.eq_dec m 0) as [->|Hz]; [reflexivity|]. rewrite size_eq by exact Hz.
    assert (N.log2 m < 8)%N by (apply N.log2_lt_pow2; [lia|change (2 ^ 8)%N with 256%N; lia]).
    replace ((N.succ (N.log2 m) + 7) / 8)%N with 1%N; [reflexivity|].
    apply N.div_unique with (r := N.log2 m); lia.
  - assert (Hz : m <> 0%N) by lia.
    assert (H8 : (8 <= N.log2 m)%N) by (change 8%N with (N.log2 256); apply N.log2_le_mono; lia).
    assert (Hs : N.shiftr m 8 <> 0%N).
    { rewrite N.shiftr_div_pow2. change (2 ^ 8)%N with 256%N. intros E. apply N.div_small_iff in E; lia. }
    rewrite (size_eq m Hz), (size_eq _ Hs), N.log2_shiftr.
    set (l := N.log2 m) in *.
    replace (N.succ l + 7)%N with ((N.succ (l - 8) + 7) + 1 * 8)%N by lia. rewrite N.div_add by lia.
    assert (Hq : (0 < (N.succ (l - 8) + 7) / 8)%N) by (apply N.div_str_pos; lia). lia.
Qed.

Lemma nbytes_le_size m : nbytes m <= N.to_nat (N.size m) + 8.
Proof.
  unfold nbytes. assert ((N.size m + 7) / 8 <= N.size m + 7)%N by (apply N.div_le_upper_bound; lia). lia.
Qed.

Lemma pos_ctz_lt_size p : (pos_ctz p < N.size (Npos p))%N.
Proof.
  pose proof (ctz_le_log2 (Npos p) (pos_ctz p) eq_refl). rewrite size_eq by discriminate. lia.
Qed.

Lemma xor_at_nil r off : xor_at r off [] = r.
Proof. unfold xor_at. cbn [length firstn xor_list app]. rewrite Nat.add_0_r. apply firstn_skipn. Qed.

Lemma encode1_ok r f v r' :
  bytes_ok r -> match v with VB b => bytes_ok b | VI _ => True end -> encode1 r f v = Ok r' -> bytes_ok r'.
Proof.
  intros Hr Hv H. destruct f as [m o|u o len], v as [x|b]; cbn [encode1] in H; try discriminate.
  - destruct (ctz m); [|discriminate]. destruct (_ <=? _); [|discriminate]. injection H as <-.
    apply xor_at_ok; [exact Hr|apply int_to_ba_ok].
  - injection H as <-. apply bytes_ok_app. split; [now apply bytes_ok_firstn|].
    apply bytes_ok_app. split; [exact Hv|now apply bytes_ok_skipn].
Qed.
