(* Proofs/ParserChecks.v — the decidable side conditions of C04 on the REGENERATED tables and decoder skeletons
   against Spec/RespFormats.v, and what they imply. *)
From Coq Require Import String.
From PS Require Import Base.Bytes Base.Result Model.Converter Model.Parser Model.ParserInst Model.CorrUtil Model.VarList.
From PS Require Import Proofs.Dict Proofs.Layout Proofs.ParserProps Spec.RespFormats Gen.Parsers.
Open Scope string_scope.
Open Scope N_scope.

Definition format_ok (fmt : string * (list string * nat * list rfield)) : bool :=
  let '(_, (names, _, flds)) := fmt in
  match layout_of names with
  | Some L => fields_ok L flds && masks_nonzero L
  | None => false
  end.

Definition formats_ok : bool := forallb format_ok resp_formats.

(* every format: decoding never fails and reports each field from its standard position, for every buffer *)
Theorem formats_sound : formats_ok = true ->
  forall name names n flds, In (name, (names, n, flds)) resp_formats ->
  exists L, layout_of names = Some L /\
    forall data, exists d, decode_bits data L = Ok d /\
      forall k b m w, In (k, b, m, w) flds ->
        lookup k d = Some (VI (std_read data b m w)) \/ lookup k d = Some (VB (std_read_bytes data b w)).
Proof.
  (* unfolded in the goal, not in H: conversion on a hypothesis makes Qed evaluate the whole check *)
  unfold formats_ok. intros H name names n flds Hin. rewrite forallb_forall in H. specialize (H _ Hin).
  unfold format_ok in H. destruct (layout_of names) as [L|]; [|discriminate].
  apply andb_prop in H as [Hf Hm]. exists L. split; [reflexivity|]. intros data.
  destruct (decode_bits_total data L Hm) as [d Hd]. exists d. split; [assumption|].
  intros k b m w Hk. eapply table_reads_standard; eauto.
Qed.

(* ---------- decoder structure ---------- *)

Definition names_of (fmt : string) : list string :=
  match lookup fmt resp_formats with Some (names, _, _) => names | None => ["?"] end.

Definition list_str_eqb := list_eqb String.eqb.

(* the whole-buffer decoders apply exactly the format's tables; INQUIRY applies the standard tables for evpd = 0,
   cuts the page at PAGE LENGTH + 4 and applies the page's table for each flat VPD page of the specification *)
Definition structure_ok : bool :=
  option_eqb list_str_eqb (lookup "scsi_cdb_readcapacity10.ReadCapacity10.unmarshall_datain" whole_parsers) (Some (names_of "readcapacity10"))
  && option_eqb list_str_eqb (lookup "scsi_cdb_readcapacity16.ReadCapacity16.unmarshall_datain" whole_parsers) (Some (names_of "readcapacity16"))
  && list_str_eqb (inquiry_pre ++ inquiry_std) (names_of "inquiry_standard")
  && String.eqb inquiry_vpd_trunc "data[:4 + convert.scsi_ba_to_int(data[2:4])]"
  && forallb (fun pf => match find (fun e => fst e =? fst pf) inquiry_vpd_flat with
                        | Some (_, tn) => list_str_eqb [tn] (names_of (snd pf))
                        | None => false
                        end) vpd_pages
  && list_str_eqb (map snd disc_info_dispatch)
       (names_of "disc_information_standard" ++ names_of "disc_information_track_resources" ++ names_of "disc_information_pow_resources")
  && list_eqb N.eqb (map fst disc_info_dispatch) [0; 1; 2]
  && match unknown_parsers with [] => true | _ => false end.

(* the descriptor-list decoders use the standard's list start, length bytes, length base and stride *)
Definition lp_eqb (p : list_params) (q : nat * (nat * nat) * nat * nat) : bool :=
  let '(s, (a, b), bias, k) := q in
  Nat.eqb (lp_start p) s && Nat.eqb (lp_len_a p) a && Nat.eqb (lp_len_b p) b && Nat.eqb (lp_bias p) bias && Nat.eqb (lp_stride p) k.

Definition lists_ok : bool :=
  forallb (fun lf => match lookup (fst lf) list_parsers with
                     | Some (p, _) => lp_eqb p (snd lf) && Nat.ltb 0 (lp_stride p) && Nat.leb (lp_len_b p) (lp_start p)
                     | None => false
                     end) list_formats.

Theorem lists_sound : lists_ok = true ->
  forall fn s a b bias k, In (fn, (s, (a, b), bias, k)) list_formats ->
  forall (hdr : bytes) (descs : list bytes) (trail : bytes),
    length hdr = s -> Forall (fun d => length d = k) descs ->
    (* the length field counts, from byte `bias`, up to the end of the last descriptor *)
    (N.to_nat (ba_to_int (slice hdr a b)) + bias = s + k * length descs)%nat ->
    parse_list_named fn (hdr ++ concat descs ++ trail)%list = Some descs.
Proof.
  unfold lists_ok. intros H fn s a b bias k Hin hdr descs trail Hh Hd Hl.
  rewrite forallb_forall in H. specialize (H _ Hin). cbn [fst snd] in H.
  unfold parse_list_named. destruct (lookup fn list_parsers) as [[p tn]|]; [|discriminate].
  apply andb_prop in H as [H Hle]. apply andb_prop in H as [Hp Hlt].
  unfold lp_eqb in Hp. rewrite !andb_true_iff, !Nat.eqb_eq in Hp. destruct Hp as ((((<- & <-) & <-) & <-) & <-).
  apply Nat.ltb_lt in Hlt. apply Nat.leb_le in Hle.
  apply parse_list_exact; assumption.
Qed.

(* ---------- VPD pages: cutting the page at PAGE LENGTH + 4 does not disturb fields inside the page ---------- *)

Lemma slice_firstn (l : bytes) n a b : (b <= n)%nat -> slice (firstn n l) a b = slice l a b.
Proof.
  intros H. unfold slice. rewrite skipn_firstn_comm, firstn_firstn. f_equal. lia.
Qed.

Lemma std_read_firstn data n b m w : (N.to_nat b + span m w <= n)%nat ->
  std_read (firstn n data) b m w = std_read data b m w.
Proof. intros H. unfold std_read. now rewrite slice_firstn. Qed.

(* ---------- lists of self-describing descriptors ---------- *)

Definition vp_eqb (p : vparams) (q : nat * nat * nat) : bool :=
  let '(f, a, b) := q in Nat.eqb (vp_fixed p) f && Nat.eqb (vp_a p) a && Nat.eqb (vp_b p) b.

(* every decoder the specification names walks its descriptors by the standard's length field, and no decoder walks
   a self-describing list the specification does not know *)
Definition var_lists_ok : bool :=
  forallb (fun sf => existsb (fun v => String.eqb (fst (fst v)) (fst sf) && vp_eqb (snd v) (snd sf)) var_lists) var_list_formats
  && forallb (fun v => existsb (fun sf => String.eqb (fst (fst v)) (fst sf) && vp_eqb (snd v) (snd sf)) var_list_formats) var_lists.

Definition walk_named (fn : string) (region : bytes) : option (list bytes) :=
  match find (fun v => String.eqb (fst (fst v)) fn) var_lists with
  | Some (_, p) => vchunks p (length region) region
  | None => None
  end.

Theorem var_lists_sound : var_lists_ok = true ->
  forall fn f a b, In (fn, (f, a, b)) var_list_formats ->
  exists p, find (fun v => String.eqb (fst (fst v)) fn) var_lists = Some p /\
            vp_fixed (snd p) = f /\ vp_a (snd p) = a /\ vp_b (snd p) = b.
Proof.
  unfold var_lists_ok. intros H fn f a b Hin. apply andb_prop in H as [H1 H2].
  rewrite forallb_forall in H1. specialize (H1 _ Hin). cbn [fst snd] in H1.
  apply existsb_exists in H1 as (v & Hv & Hm). apply andb_prop in Hm as [Hn Hp].
  (* the first entry found for fn satisfies the same equation because every entry of var_lists does (H2) *)
  destruct (find (fun v => String.eqb (fst (fst v)) fn) var_lists) as [p|] eqn:Hf.
  - exists p. split; [reflexivity|].
    apply find_some in Hf as [Hpin Hpn]. rewrite forallb_forall in H2. specialize (H2 _ Hpin).
    apply existsb_exists in H2 as (sf & Hsf & Hm2). apply andb_prop in Hm2 as [Hn2 Hp2].
    apply String.eqb_eq in Hpn, Hn2.
    (* sf is the specification entry of the same decoder; the specification lists each decoder once *)
    assert (Hnd : NoDup (map fst var_list_formats)) by (apply nodupb_NoDup; reflexivity).
    destruct sf as [fn' q]. cbn [fst snd] in *. rewrite <- Hn2, Hpn in Hsf.
    pose proof (lookup_nodup _ _ _ Hnd Hsf) as Hq. rewrite (lookup_nodup _ _ _ Hnd Hin) in Hq. injection Hq as <-.
    unfold vp_eqb in Hp2. rewrite !andb_true_iff, !Nat.eqb_eq in Hp2. tauto.
  - exfalso. apply String.eqb_eq in Hn. eapply (find_none _ _ Hf) in Hv. cbn beta in Hv. rewrite Hn, String.eqb_refl in Hv. discriminate.
Qed.
