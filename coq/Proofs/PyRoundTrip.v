(* Proofs/PyRoundTrip.v — both directions of a structure with a descriptor list, over the REGENERATED bodies (Gen/PyFuncs.v) under
   Model/Py.v: GET LBA STATUS and REPORT LUNS.  The builder returns header + one descriptor per dictionary with the length field set to
   what follows; decoding what was built returns the dictionaries; for any number of descriptors.  Also the structures that are one table. *)
From Coq Require Import String ZArith.
From PS Require Import Base.Bytes Base.Result Model.Converter Model.Py Proofs.PyLemmas Proofs.PyParsers Proofs.PyTotal Proofs.Layout Gen.Tables Gen.PyFuncs.
Open Scope string_scope.
Open Scope nat_scope.

(* ------------------------------------------------------------------ encode_dict and decode_bits on dictionaries of model values *)
Lemma encode_pv_of_decoded (dv : list (string * value)) L : forall r, encode_pv (dict_of_decoded dv) L r = encode_dict dv L r.
Proof.
  induction dv as [|[k v] dv IH]; intros r; [reflexivity|].
  unfold dict_of_decoded in *. cbn [map fst snd]. unfold encode_pv. fold encode_pv. cbn [encode_dict].
  destruct (lookup k L) as [f|]; [|apply IH].
  destruct f as [m o|u o len]; destruct v as [x|b]; cbn [pv_of_value as_int].
  - destruct (Z.ltb_spec (Z.of_N x) 0); [lia|]. rewrite N2Z.id. destruct (encode1 r (Mask m o) (VI x)); [apply IH|reflexivity].
  - cbn [encode1]. reflexivity.
  - cbn [encode1]. reflexivity.
  - destruct (encode1 r (Blob u o len) (VB b)); [apply IH|reflexivity].
Qed.

Lemma lookup_dict_of_decoded (dv : list (string * value)) k v : NoDup (map fst dv) -> In (k, v) dv ->
  lookup k (dict_of_decoded dv) = Some (pv_of_value v).
Proof. intros Hnd Hin. unfold dict_of_decoded. now rewrite lookup_map, (lookup_nodup dv k v Hnd Hin). Qed.

Lemma dict_of_decoded_names (dv : list (string * value)) : map fst (dict_of_decoded dv) = map fst dv.
Proof. unfold dict_of_decoded. rewrite map_map. apply map_ext. intros [k v]. reflexivity. Qed.

(* decoding what a complete, valid dictionary (keys in table order) was encoded into returns that dictionary *)
Lemma decode_bits_of_encoded n L dv b :
  wf_layout n L = true -> valid_dict n L dv = true -> map fst dv = map fst L ->
  encode_dict dv L (zeros n) = Ok b -> decode_bits b L = Ok dv.
Proof.
  intros Hwf Hvd Hk Henc.
  assert (Hfield : forall k f v, In (k, f) L -> In (k, v) dv -> decode1 b f = Ok v).
  { intros k f v Hin Hv.
    destruct (decode_encode_zeros n L dv k f Hwf Hvd Hin) as (r2 & E2 & _ & _ & Hdec & _).
    rewrite Henc in E2. injection E2 as <-. exact (Hdec v Hv). }
  clear Henc Hvd Hwf. revert dv Hk Hfield. induction L as [|[k f] L IH]; intros dv Hk Hf.
  - destruct dv; [reflexivity|discriminate].
  - destruct dv as [|[k' v] dv]; [discriminate|]. cbn [map fst] in Hk. injection Hk as -> Hk.
    unfold decode_bits. fold decode_bits. rewrite (Hf k f v (or_introl eq_refl) (or_introl eq_refl)).
    rewrite (IH dv Hk); [reflexivity|]. intros k0 f0 v0 H1 H2. apply (Hf k0 f0 v0); now right.
Qed.

(* ... and every such dictionary can be encoded *)
Lemma encode_valid n L dv : wf_layout n L = true -> valid_dict n L dv = true -> map fst dv = map fst L ->
  exists b, encode_dict dv L (zeros n) = Ok b /\ length b = n /\ decode_bits b L = Ok dv.
Proof.
  intros Hwf Hv Hk. destruct (valid_dict_parts _ _ _ Hv) as (_ & Hvals).
  destruct (encode_zeros_bits n L dv Hvals) as (b & E & Lb & _).
  exists b. split; [exact E|]. split; [exact Lb|]. exact (decode_bits_of_encoded n L dv b Hwf Hv Hk E).
Qed.

Lemma Forall_choice {A B} (P : A -> Prop) (Q : B -> Prop) (proj : B -> A) (l : list A) :
  Forall P l -> (forall a, P a -> exists b, proj b = a /\ Q b) -> exists bs, map proj bs = l /\ Forall Q bs.
Proof.
  intros Hl H. induction Hl as [|a l Ha _ (bs & Hm & Hq)]; [exists []; split; [reflexivity|constructor]|].
  destruct (H a Ha) as (b & Hb & Hqb). exists (b :: bs). split; [cbn [map]; now rewrite Hb, Hm|now constructor].
Qed.

(* ------------------------------------------------------------------ builders of a header and a list of descriptors *)
(* result = bytearray(h); (an early return if the key is absent); for l in data[key]: <loop>; result[:4] = len(result) - c; return result *)
Definition list_builder_body (h c : Z) (key : string) (loop : list st) : list st :=
  let finish := [SStoreSlice "result" None (Some (EConst (PInt 4))) (EIntToBa (EBin BSub (ELen (EVar "result")) (EConst (PInt c))) (EConst (PInt 4)));
                 SReturn (EVar "result")] in
  SAssign "result" (EBytearray (EConst (PInt h))) :: SIf (EIn true (EConst (PStr key)) (EVar "data")) finish []
  :: SFor "l" (EIndex (EVar "data") (EConst (PStr key))) loop :: finish.

(* if one turn of the loop appends `enc a` for the item `g a`, the builder returns the length, the rest of the header, the descriptors *)
Theorem list_builder_exact {A} (name key : string) (F : fundef) (h c : nat) (loop : list st) (g : A -> pv) (enc : A -> bytes) (P : A -> Prop) :
  lookup name py_program = Some F -> fn_params F = [("data", None)] -> fn_body F = list_builder_body (Z.of_nat h) (Z.of_nat c) key loop ->
  4 <= h -> c <= h -> (Z.of_nat h <= 1048576)%Z ->
  (forall call again a pre ρ, P a -> lookup "result" ρ = Some (PBytes pre) ->
     exists ρ', exec_block all_tables call again loop (dict_set ρ "l" (g a)) = ONorm ρ' /\ lookup "result" ρ' = Some (PBytes (pre ++ enc a)%list)) ->
  forall (all : list A) f, Forall P all -> 1 <= f ->
  call_fun all_tables py_program f name [PDict [(key, PList (map g all))]]
  = Ok (PBytes (int_to_ba (N.of_nat (h - c + length (concat (map enc all)))) 4 ++ zeros (h - 4) ++ concat (map enc all))%list).
Proof.
  intros HF Hp Hb H4 Hc Hh Hloop all f Hall Hf. destruct f as [|f]; [lia|].
  eapply call_with_ret; [exact HF|rewrite Hp; reflexivity|]. rewrite Hb. unfold list_builder_body.
  cstep. rewrite (bytearray_zeros _ h) by lia.
  rewrite exec_block_cons, exec_if. cbn [eval lookup String.eqb Ascii.eqb Bool.eqb in_eval]. rewrite String.eqb_refl. cbn [negb truthy]. rewrite exec_block_nil.
  rewrite exec_block_cons, exec_for. cbn [eval lookup String.eqb Ascii.eqb Bool.eqb index_eval]. rewrite String.eqb_refl. cbn [iter_items].
  destruct (for_appends all_tables (call_with py_program (run all_tables py_program f)) (run all_tables py_program f) "l" "result" loop A g enc P
              (Hloop _ _) all (zeros h) [("data", PDict [(key, PList (map g all))]); ("result", PBytes (zeros h))] Hall eq_refl) as (ρ' & -> & Hres).
  rewrite (exec_store_len_ret _ _ _ "result" _ c _ ρ' eq_refl Hres) by (rewrite app_length, zeros_length; lia).
  rewrite app_length, zeros_length, skipn_app, zeros_length. unfold zeros at 1. rewrite skipn_repeat'.
  replace (4 - h) with 0 by lia. replace (h + length (concat (map enc all)) - c) with (h - c + length (concat (map enc all))) by lia. reflexivity.
Qed.

Definition GLSM := "scsi_cdb_getlbastatus.GetLBAStatus.marshall_datain".
Notation PF_glsm := PF_scsi_cdb_getlbastatus_GetLBAStatus_marshall_datain.

Lemma glsm_lookup : lookup GLSM py_program = Some PF_glsm.
Proof. vm_compute. reflexivity. Qed.

Definition gls_dict (dv : list (string * value)) : pv := PDict (dict_of_decoded dv).

Lemma glsm_turn call again (p : list (string * value) * bytes) pre ρ :
  encode_dict (fst p) T_gls (zeros 16) = Ok (snd p) /\ length (snd p) = 16 -> lookup "result" ρ = Some (PBytes pre) ->
  exists ρ', exec_block all_tables call again (for_body (fn_body PF_glsm) 2) (dict_set ρ "l" (gls_dict (fst p))) = ONorm ρ' /\
             lookup "result" ρ' = Some (PBytes (pre ++ snd p)%list).
Proof.
  intros [Henc Hlen] Hres. cbn [for_body nth fn_body PF_glsm].
  step. rewrite (bytearray_zeros _ 16) by lia.
  step. unfold gls_dict at 1. rewrite gls_table. unfold with_var. lk. rewrite encode_pv_of_decoded, Henc.
  step. rewrite Hres. cbn [bin_eval as_int]. rewrite exec_block_nil.
  eexists. split; [reflexivity|]. lk. reflexivity.
Qed.

(* the builder: 8-byte header whose first four bytes count what follows them, then one descriptor per dictionary, in order *)
Theorem getlbastatus_build_exact : forall (all : list (list (string * value) * bytes)) f,
  Forall (fun p => encode_dict (fst p) T_gls (zeros 16) = Ok (snd p) /\ length (snd p) = 16) all -> 1 <= f ->
  call_fun all_tables py_program f GLSM [PDict [("lbas", PList (map (fun p => gls_dict (fst p)) all))]]
  = Ok (PBytes (int_to_ba (N.of_nat (4 + 16 * length all)) 4 ++ zeros 4 ++ concat (map snd all))%list).
Proof.
  intros all f Hall Hf.
  rewrite (list_builder_exact GLSM "lbas" PF_glsm 8 4 _ _ snd _ glsm_lookup eq_refl eq_refl ltac:(lia) ltac:(lia) ltac:(lia) glsm_turn all f Hall Hf).
  rewrite (VarListProps.concat_length 16), map_length; [reflexivity|]. apply Forall_map. eapply Forall_impl; [|exact Hall]. intros p H. apply H.
Qed.

Lemma gls_wf16 : wf_layout 16 T_gls = true.
Proof. vm_compute. reflexivity. Qed.

(* build, then parse: every list of complete valid descriptor dictionaries comes back, whole and in order — any number of them *)
Theorem getlbastatus_parse_inverts_build : forall (dvs : list (list (string * value))) f,
  Forall (fun dv => valid_dict 16 T_gls dv = true /\ map fst dv = map fst T_gls) dvs ->
  (Z.of_nat (length dvs) <= 100000000)%Z -> length dvs + 2 <= f ->
  exists built, call_fun all_tables py_program f GLSM [PDict [("lbas", PList (map gls_dict dvs))]] = Ok (PBytes built) /\
    call_fun all_tables py_program f GLS [PBytes built] = Ok (PDict [("lbas", PList (map gls_dict dvs))]).
Proof.
  intros dvs f Hall Hsmall Hf.
  (* each dictionary with what it is encoded into *)
  destruct (Forall_choice _ (fun p => encode_dict (fst p) T_gls (zeros 16) = Ok (snd p) /\ length (snd p) = 16 /\ decode_bits (snd p) T_gls = Ok (fst p)) fst
              dvs Hall) as (all & <- & Hb).
  { intros dv [Hv Hk]. destruct (encode_valid 16 T_gls dv gls_wf16 Hv Hk) as (b & Hb). now exists (dv, b). }
  assert (H16 : Forall (fun d => length d = 16) (map snd all)) by (apply Forall_map; eapply Forall_impl; [|exact Hb]; intros p H; apply H).
  rewrite map_length in Hsmall, Hf. rewrite map_map.
  eexists. split; [apply getlbastatus_build_exact; [eapply Forall_impl; [|exact Hb]; intros p H; split; apply H|lia]|].
  pose proof (getlbastatus_exact (int_to_ba (N.of_nat (4 + 16 * length all)) 4 ++ zeros 4)%list (map snd all) [] f) as Hex.
  rewrite app_nil_r, <- app_assoc in Hex. rewrite Hex.
  - do 5 f_equal. rewrite map_map. apply map_ext_in. intros p Hin. rewrite Forall_forall in Hb. destruct (Hb _ Hin) as (_ & _ & Hd).
    unfold gls_desc, gls_dict, decode_total. now rewrite Hd.
  - rewrite app_length, int_to_ba_length, zeros_length. reflexivity.
  - exact H16.
  - rewrite firstn_app, int_to_ba_length, Nat.sub_diag, firstn_O, app_nil_r. rewrite firstn_all2 by (rewrite int_to_ba_length; lia).
    rewrite ba_to_int_to_ba. rewrite N.mod_small by (change (256 ^ N.of_nat 4)%N with 4294967296%N; lia).
    rewrite (VarListProps.concat_length 16 _ H16), map_length. lia.
  - rewrite map_length. lia.
Qed.

Definition RLM := "scsi_cdb_report_luns.ReportLuns.marshall_datain".
Notation PF_rlm := PF_scsi_cdb_report_luns_ReportLuns_marshall_datain.

Lemma rlm_lookup : lookup RLM py_program = Some PF_rlm.
Proof. vm_compute. reflexivity. Qed.

Lemma lxor_0_l_list (b : bytes) : xor_list (repeat 0%N (length b)) b = b.
Proof. induction b as [|x b IH]; [reflexivity|]. change (length (x :: b)) with (S (length b)). cbn [repeat xor_list]. now rewrite IH, N.lxor_0_l. Qed.

Lemma luns_encode (v : N) : encode_pv [("lun", PInt (Z.of_N v))] T_rl (zeros 8) = Ok (int_to_ba v 8).
Proof.
  unfold encode_pv, T_rl, T_scsi_cdb_report_luns__ReportLuns___datain_bits. cbn [lookup String.eqb Ascii.eqb Bool.eqb as_int].
  destruct (Z.ltb_spec (Z.of_N v) 0); [lia|]. rewrite N2Z.id. unfold encode1. cbn [ctz pos_ctz]. change (nbytes 18446744073709551615) with 8.
  rewrite zeros_length. cbn [N.to_nat Nat.add Nat.leb]. rewrite N.shiftl_0_r. f_equal.
Qed.

Definition lun_entry (kv : string * N) : pv := PDict [(fst kv, PInt (Z.of_N (snd kv)))].

Lemma rlm_turn call again (kv : string * N) pre ρ : lookup "result" ρ = Some (PBytes pre) ->
  exists ρ', exec_block all_tables call again (for_body (fn_body PF_rlm) 2) (dict_set ρ "l" (lun_entry kv)) = ONorm ρ' /\
             lookup "result" ρ' = Some (PBytes (pre ++ int_to_ba (snd kv) 8)%list).
Proof.
  intros Hres. destruct kv as [k v]. cbn [for_body nth fn_body PF_rlm].
  step. rewrite (bytearray_zeros _ 8) by lia.
  step. unfold lun_entry at 1. cbn [fst snd map iter_items]. lk. cbn [lookup String.eqb Ascii.eqb Bool.eqb dict_set].
  rewrite rl_table. unfold with_var. lk. rewrite luns_encode.
  step. rewrite Hres. cbn [bin_eval as_int]. rewrite exec_block_nil.
  eexists. split; [reflexivity|]. lk. reflexivity.
Qed.

(* the builder: LUN LIST LENGTH (bytes 0..3) = 8 per entry, 4 reserved bytes, then the LUNs in the CALLER'S order (whatever the keys are
   called — lun0, lun1, ..., lun10: the order of the list decides, not the names) *)
Theorem reportluns_build_exact : forall (all : list (string * N)) f, 1 <= f ->
  call_fun all_tables py_program f RLM [PDict [("luns", PList (map lun_entry all))]]
  = Ok (PBytes (int_to_ba (N.of_nat (8 * length all)) 4 ++ zeros 4 ++ concat (map (fun kv => int_to_ba (snd kv) 8) all))%list).
Proof.
  intros all f Hf.
  rewrite (list_builder_exact RLM "luns" PF_rlm 8 8 _ _ (fun kv => int_to_ba (snd kv) 8) (fun _ => True) rlm_lookup eq_refl eq_refl ltac:(lia) ltac:(lia) ltac:(lia)
             (fun call again kv pre ρ _ => rlm_turn call again kv pre ρ) all f)
    by (assumption || (apply Forall_forall; trivial)).
  rewrite (VarListProps.concat_length 8), map_length; [reflexivity|]. apply Forall_map, Forall_forall. intros x _. apply int_to_ba_length.
Qed.

Fixpoint numbered (i : nat) (vs : list N) : list (string * N) :=
  match vs with [] => [] | v :: r => ("lun" ++ z_to_string (Z.of_nat i), v) :: numbered (S i) r end.

Lemma numbered_length i vs : length (numbered i vs) = length vs.
Proof. revert i. induction vs as [|v vs IH]; intros i; [reflexivity|]. cbn [numbered]. change (length (?a :: ?l)) with (S (length l)). now rewrite IH. Qed.

Lemma rl_value_of_encoded v : (v < 2 ^ 64)%N -> rl_value (int_to_ba v 8) = PInt (Z.of_N v).
Proof.
  intros Hv. unfold rl_value. change (nbytes 18446744073709551615) with 8. rewrite !N.shiftr_0_r.
  unfold slice. change (0 + 8 - 0) with 8. change (skipn 0 (int_to_ba v 8)) with (int_to_ba v 8).
  rewrite firstn_all2 by (rewrite int_to_ba_length; lia). rewrite ba_to_int_to_ba.
  change (256 ^ N.of_nat 8)%N with (2 ^ 64)%N. rewrite N.mod_small by exact Hv.
  change 18446744073709551615%N with (N.ones 64). rewrite N.land_ones. now rewrite N.mod_small.
Qed.

Lemma rl_entries_numbered i vs : Forall (fun v => (v < 2 ^ 64)%N) vs ->
  rl_entries i (map (fun kv => int_to_ba (snd kv) 8) (numbered i vs)) = map lun_entry (numbered i vs).
Proof.
  intros H. revert i. induction H as [|v vs Hv _ IH]; intros i; [reflexivity|].
  cbn [numbered map rl_entries snd]. rewrite IH. f_equal. unfold rl_entry, lun_entry. cbn [fst snd]. now rewrite rl_value_of_encoded.
Qed.

(* REPORT LUNS built from lun0 .. lun<n-1> (any number of them, values below 2^64) decodes to exactly those entries, in order *)
Theorem reportluns_parse_inverts_build : forall (vs : list N) f,
  Forall (fun v => (v < 2 ^ 64)%N) vs -> (Z.of_nat (length vs) <= 100000000)%Z -> 8 * length vs + 11 <= f ->
  exists built, call_fun all_tables py_program f RLM [PDict [("luns", PList (map lun_entry (numbered 0 vs)))]] = Ok (PBytes built) /\
    call_fun all_tables py_program f RL [PBytes built] = Ok (PDict [("luns", PList (map lun_entry (numbered 0 vs)))]).
Proof.
  intros vs f Hvs Hsmall Hf.
  set (all := numbered 0 vs). set (descs := map (fun kv : string * N => int_to_ba (snd kv) 8) all).
  assert (Hla : length all = length vs) by apply numbered_length.
  assert (H8 : Forall (fun d => length d = 8) descs) by (apply Forall_map, Forall_forall; intros x _; apply int_to_ba_length).
  assert (Hcl : length (concat descs) = 8 * length vs) by (rewrite (VarListProps.concat_length 8 _ H8); unfold descs; now rewrite map_length, Hla).
  eexists. split; [apply reportluns_build_exact; lia|]. fold descs.
  set (built := (int_to_ba (N.of_nat (8 * length all)) 4 ++ zeros 4 ++ concat descs)%list).
  assert (Hbl : length built = 8 + 8 * length vs).
  { unfold built. rewrite !app_length, int_to_ba_length, zeros_length, Hcl. lia. }
  rewrite (reportluns_total built f) by lia.
  assert (Hann : py_slice built (Some 8%Z) (Some (Z.of_N (ba_to_int (py_slice built None (Some 4%Z))) + 8)%Z) = concat descs).
  { assert (H4 : py_slice built None (Some 4%Z) = int_to_ba (N.of_nat (8 * length all)) 4).
    { unfold built. apply py_slice_prefix. now rewrite int_to_ba_length. }
    rewrite H4, ba_to_int_to_ba. rewrite N.mod_small by (change (256 ^ N.of_nat 4)%N with 4294967296%N; lia).
    unfold built. replace (int_to_ba (N.of_nat (8 * length all)) 4 ++ zeros 4 ++ concat descs)%list
      with ((int_to_ba (N.of_nat (8 * length all)) 4 ++ zeros 4) ++ concat descs ++ [])%list by (now rewrite app_nil_r, <- app_assoc).
    apply py_slice_mid; rewrite ?app_length, ?int_to_ba_length, ?zeros_length, ?Hcl; lia. }
  rewrite Hann. rewrite chunks_concat by (assumption || lia).
  unfold descs, all. now rewrite rl_entries_numbered.
Qed.

(* ------------------------------------------------------------------ plain table builders and their decoders *)
Definition plain_builder_body (n : Z) (tname : string) : list st :=
  [SAssign "result" (EBytearray (EConst (PInt n))); SEncode (EVar "data") tname "result"; SReturn (EVar "result")].

Theorem plain_builder_exact : forall (name tname : string) (F : fundef) (T : layout) (n : nat),
  lookup name py_program = Some F -> fn_params F = [("data", None)] -> fn_body F = plain_builder_body (Z.of_nat n) tname ->
  lookup tname all_tables = Some T -> (Z.of_nat n <= 1048576)%Z ->
  forall (dd : list (string * pv)) (r : bytes) f, 1 <= f -> encode_pv dd T (zeros n) = Ok r ->
  call_fun all_tables py_program f name [PDict dd] = Ok (PBytes r).
Proof.
  intros name tname F T n HF Hp Hb HT Hn dd r f Hf Henc. destruct f as [|f]; [lia|].
  eapply call_with_ret; [exact HF|rewrite Hp; reflexivity|]. rewrite Hb. unfold plain_builder_body.
  cstep. rewrite (bytearray_zeros _ n) by lia.
  cstep. rewrite HT, Henc.
  cstep. reflexivity.
Qed.

(* a structure that is one table in both directions: decoding what was built from a complete valid dictionary returns it *)
Theorem plain_pair_round_trip : forall (bname dname tname : string) (B D : fundef) (T : layout) (n : nat),
  lookup bname py_program = Some B -> fn_params B = [("data", None)] -> fn_body B = plain_builder_body (Z.of_nat n) tname ->
  lookup dname py_program = Some D -> fn_params D = [("data", None)] -> fn_body D = plain_body tname ->
  lookup tname all_tables = Some T -> wf_layout n T = true -> masks_nonzero T = true -> names_distinct (map fst T) = true -> (Z.of_nat n <= 1048576)%Z ->
  forall (dv : list (string * value)) f, 1 <= f -> valid_dict n T dv = true -> map fst dv = map fst T ->
  exists built, call_fun all_tables py_program f bname [PDict (dict_of_decoded dv)] = Ok (PBytes built) /\
    call_fun all_tables py_program f dname [PBytes built] = Ok (PDict (dict_of_decoded dv)).
Proof.
  intros bname dname tname B D T n HB HBp HBb HD HDp HDb HT Hwf Hm Hd Hn dv f Hf Hv Hk.
  destruct (encode_valid n T dv Hwf Hv Hk) as (r & E & _ & Hdec).
  exists r. split.
  - eapply plain_builder_exact; try eassumption. now rewrite encode_pv_of_decoded.
  - rewrite (plain_decoder_total dname tname D T HD HDp HDb HT Hm Hd r f Hf). unfold decode_total. now rewrite Hdec.
Qed.

Theorem readcapacity10_round_trip : forall (dv : list (string * value)) f, 1 <= f ->
  valid_dict 8 T_rc10 dv = true -> map fst dv = map fst T_rc10 ->
  exists built, call_fun all_tables py_program f "scsi_cdb_readcapacity10.ReadCapacity10.marshall_datain" [PDict (dict_of_decoded dv)] = Ok (PBytes built) /\
    call_fun all_tables py_program f "scsi_cdb_readcapacity10.ReadCapacity10.unmarshall_datain" [PBytes built] = Ok (PDict (dict_of_decoded dv)).
Proof.
  apply (plain_pair_round_trip _ _ "scsi_cdb_readcapacity10.ReadCapacity10._datain_bits"
           PF_scsi_cdb_readcapacity10_ReadCapacity10_marshall_datain PF_scsi_cdb_readcapacity10_ReadCapacity10_unmarshall_datain T_rc10 8);
    vm_compute; try reflexivity; discriminate.
Qed.

Theorem readcapacity16_round_trip : forall (dv : list (string * value)) f, 1 <= f ->
  valid_dict 32 T_rc16 dv = true -> map fst dv = map fst T_rc16 ->
  exists built, call_fun all_tables py_program f "scsi_cdb_readcapacity16.ReadCapacity16.marshall_datain" [PDict (dict_of_decoded dv)] = Ok (PBytes built) /\
    call_fun all_tables py_program f "scsi_cdb_readcapacity16.ReadCapacity16.unmarshall_datain" [PBytes built] = Ok (PDict (dict_of_decoded dv)).
Proof.
  apply (plain_pair_round_trip _ _ "scsi_cdb_readcapacity16.ReadCapacity16._datain_bits"
           PF_scsi_cdb_readcapacity16_ReadCapacity16_marshall_datain PF_scsi_cdb_readcapacity16_ReadCapacity16_unmarshall_datain T_rc16 32);
    vm_compute; try reflexivity; discriminate.
Qed.
