(* Proofs/CdbSpec.v — from the decidable check [ctor_matches c spec] on a regenerated constructor
   to the C01 statement for ALL arguments: the CDB has the SAM length and carries each argument,
   the operation code and the service action at the standard's byte/bit position, every other bit
   zero. *)
From Coq Require Import String.
From PS Require Import Base.Bytes Base.Result Model.Converter Model.Ctor Model.CorrUtil.
From PS Require Import Proofs.Codec Proofs.Layout Proofs.CtorSound Spec.CdbFormats.
Open Scope string_scope.
Open Scope N_scope.

(* ---------- standard position -> bit range of the big-endian integer of an n-byte CDB ---------- *)

Definition sgeom (n : nat) (sf : sfield) : option geom :=
  let hi := 8 * (N.of_nat n - sf_byte sf - 1) + sf_msb sf + 1 in      (* one above the field's top bit *)
  if (sf_byte sf <? N.of_nat n) && (sf_msb sf <? 8) && (sf_width sf <=? hi) && (1 <=? sf_width sf)
  then Some (mkGeom (hi - sf_width sf) (sf_width sf)) else None.

(* what a standards-conformant target reads at that position *)
Definition tgt_field (r : bytes) (g : geom) : N := (ba_to_int r / 2 ^ g_lo g) mod 2 ^ g_w g.

Definition geom_eqb (a b : geom) : bool := (g_lo a =? g_lo b) && (g_w a =? g_w b).

(* ---------- splitting a body into the recognised shape ---------- *)

Fixpoint split_init (body : list gstmt) : option (list gstmt * iexpr * iexpr * list gstmt) :=
  match body with
  | [] => None
  | (g, s) :: b' =>
      match g, s with
      | [], SInit eo ei => Some ([], eo, ei, b')
      | _, _ => match split_init b' with
                | Some (pre, eo, ei, rest) => Some ((g, s) :: pre, eo, ei, rest)
                | None => None
                end
      end
  end.

Fixpoint split_last (rest : list gstmt) : option (list gstmt * list (string * iexpr)) :=
  match rest with
  | [] => None
  | (g, s) :: r' =>
      match r' with
      | [] => match g, s with
              | [], SBuild O kvs => Some ([], kvs)
              | _, _ => None
              end
      | _ => match split_last r' with
             | Some (mid, kvs) => Some ((g, s) :: mid, kvs)
             | None => None
             end
      end
  end.

Definition shape_of (body : list gstmt) : option shape :=
  match split_init body with
  | None => None
  | Some (pre, eo, ei, rest) =>
      match split_last rest with
      | None => None
      | Some (mid, kvs) => Some (mkShape pre eo ei mid kvs)
      end
  end.

Lemma split_init_ok body : forall pre eo ei rest,
  split_init body = Some (pre, eo, ei, rest) -> body = (pre ++ ([], SInit eo ei) :: rest)%list.
Proof.
  induction body as [|[g s] b IH]; intros pre eo ei rest H; cbn [split_init] in H; [discriminate|].
  destruct g as [|g0 g']; [destruct s|];
    try (destruct (split_init b) as [[[[p1 e1] e2] r1]|] eqn:E; [|discriminate];
         inversion H; subst; cbn [app]; f_equal; now apply IH).
  inversion H; subst. reflexivity.
Qed.

Lemma split_last_ok rest : forall mid kvs,
  split_last rest = Some (mid, kvs) -> rest = (mid ++ [([], SBuild 0 kvs)])%list.
Proof.
  induction rest as [|[g s] r IH]; intros mid kvs H; cbn [split_last] in H; [discriminate|].
  destruct r as [|x r'].
  - destruct g; [|discriminate]. destruct s; try discriminate. destruct npos; [|discriminate].
    inversion H; subst. reflexivity.
  - destruct (split_last (x :: r')) as [[m k]|] eqn:E; [|discriminate].
    inversion H; subst. cbn [app]. f_equal. now apply IH.
Qed.

Lemma shape_of_ok body sh : shape_of body = Some sh -> shape_body sh = body.
Proof.
  unfold shape_of. destruct (split_init body) as [[[[pre eo] ei] rest]|] eqn:E1; [|discriminate].
  destruct (split_last rest) as [[mid kvs]|] eqn:E2; [|discriminate].
  intros H; inversion H; subst. unfold shape_body. cbn [sh_pre sh_eo sh_ei sh_mid sh_kvs].
  rewrite (split_init_ok _ _ _ _ _ E1), (split_last_ok _ _ _ E2). reflexivity.
Qed.

(* ---------- the decidable check ---------- *)

Definition src_matches (params unassigned : list string) (s : src) (e : iexpr) : bool :=
  match s, e with
  | Arg x, EVar y => String.eqb x y && memb_s x params && memb_s x unassigned
  | Opcode, EOpValue => true
  | SAct n, ESA m => String.eqb n m
  | Const k, EConst j => k =? j
  | ParamListLen, ELen _ => true
  | Fn fn x, ECall fn' [y] => String.eqb fn fn' && String.eqb x y && memb_s x params && memb_s x unassigned
  | _, _ => false
  end.

Definition kv_ok (n : nat) (L : layout) (params unassigned : list string) (fields : list sfield)
           (kv : string * iexpr) : bool :=
  match lookup (fst kv) L with
  | None => false                      (* the value would silently not reach the CDB *)
  | Some f =>
      match geom_of n f with
      | None => false
      | Some g => existsb (fun sf => src_matches params unassigned (sf_src sf) (snd kv)
                                     && match sgeom n sf with Some g' => geom_eqb g g' | None => false end) fields
      end
  end.

Definition field_covered (n : nat) (L : layout) (params unassigned : list string)
           (kvs : list (string * iexpr)) (sf : sfield) : bool :=
  existsb (fun kv => src_matches params unassigned (sf_src sf) (snd kv)
                     && match lookup (fst kv) L with
                        | Some f => match geom_of n f, sgeom n sf with
                                    | Some g, Some g' => geom_eqb g g'
                                    | _, _ => false
                                    end
                        | None => false
                        end) kvs.

Definition ctor_matches (c : ctor) (sp : cdb_spec) : bool :=
  match shape_of (c_body c) with
  | None => false
  | Some sh =>
      let n := sp_len sp in
      let params := map fst (c_params c) in
      let asg := assigned (sh_pre sh ++ sh_mid sh) in
      let unassigned := filter (fun x => negb (memb_s x asg)) params in
      shape_ok sh && wf_layout n (c_bits c) && nodupb (map fst (sh_kvs sh))
      && forallb (kv_ok n (c_bits c) params unassigned (sp_fields sp)) (sh_kvs sh)
      && forallb (field_covered n (c_bits c) params unassigned (sh_kvs sh)) (sp_fields sp)
  end.

(* what the source of a standard field denotes, given the caller's bound arguments and the opcode *)
Definition src_denotes (ρ0 : env) (op : opcode) (s : src) (v : N) : Prop :=
  match s with
  | Arg x => lookup x ρ0 = Some (CInt v)
  | Opcode => v = op_value op
  | SAct n => lookup n (op_sa op) = Some v
  | Const k => v = k
  | ParamListLen => True
  | Fn _ _ => True
  end.

Lemma eval_kvs_keys ext op ρ kvs d : eval_kvs ext op ρ kvs = Ok d -> map fst d = map fst kvs.
Proof.
  revert d; induction kvs as [|[k e] kvs IH]; intros d H; cbn [eval_kvs] in H.
  - inversion H; reflexivity.
  - destruct (eval ext op ρ e); [|discriminate]. destruct (eval_kvs ext op ρ kvs); [|discriminate].
    inversion H; subst. cbn [map fst]. f_equal. now apply IH.
Qed.

Lemma eval_kvs_In ext op ρ kvs d k e : eval_kvs ext op ρ kvs = Ok d -> In (k, e) kvs ->
  exists v, In (k, v) d /\ eval ext op ρ e = Ok v.
Proof.
  revert d; induction kvs as [|[k1 e1] kvs IH]; intros d H Hin; [contradiction|].
  cbn [eval_kvs] in H. destruct (eval ext op ρ e1) as [v1|] eqn:E1; [|discriminate].
  destruct (eval_kvs ext op ρ kvs) as [d1|] eqn:E2; [|discriminate]. inversion H; subst.
  destruct Hin as [E|Hin].
  - inversion E; subst. exists v1. split; [now left|assumption].
  - destruct (IH d1 eq_refl Hin) as (v & Hv & Ev). exists v. split; [now right|assumption].
Qed.

Lemma ints_In d k v : all_ints d = true -> In (k, v) d -> exists n, v = CInt n /\ In (k, VI n) (ints d).
Proof.
  intros Ha Hin. unfold all_ints in Ha. rewrite forallb_forall in Ha. specialize (Ha _ Hin). cbn [snd] in Ha.
  destruct v; try discriminate. exists n. split; [reflexivity|].
  unfold ints. apply in_map_iff. exists (k, CInt n). split; [reflexivity|assumption].
Qed.

Lemma ints_keys d : map fst (ints d) = map fst d.
Proof. unfold ints. rewrite map_map. apply map_ext. intros [k v]; reflexivity. Qed.

Lemma geom_eqb_eq a b : geom_eqb a b = true -> a = b.
Proof.
  destruct a, b. unfold geom_eqb. simpl. intros H. apply andb_prop in H as [A B].
  apply N.eqb_eq in A, B. now subst.
Qed.

Lemma memb_s_false_notin x l : memb_s x l = false -> ~ In x l.
Proof.
  intros H Hin. induction l as [|a l IH]; [contradiction|]. cbn [memb_s] in H.
  apply orb_false_elim in H as [H1 H2]. destruct Hin as [->|Hin]; [now rewrite String.eqb_refl in H1|auto].
Qed.

Lemma filter_unassigned x params asg :
  memb_s x (filter (fun y => negb (memb_s y asg)) params) = true -> ~ In x asg.
Proof.
  intros H. apply memb_s_In, filter_In in H as [_ H]. now apply memb_s_false_notin, negb_true_iff.
Qed.

Lemma encode_field_int n L d r k x f g :
  wf_layout n L = true -> valid_dict n L d = true -> encode_dict d L (zeros n) = Ok r ->
  In (k, VI x) d -> lookup k L = Some f -> geom_of n f = Some g -> tgt_field r g = x.
Proof.
  intros Hwf Hvd E Hin Hl Hg.
  destruct (encode_field_bits n L d (zeros n) r k (VI x) f g Hwf Hvd (zeros_length n) (bytes_ok_zeros n)
              (ba_to_int_zeros n) E Hin Hl Hg) as (x' & Hx & B).
  destruct f; [|discriminate]. injection Hx as <-.
  apply N.bits_inj. intros i. unfold tgt_field. now rewrite testbit_divmod, B.
Qed.

Lemma ctor_matches_parts c sp : ctor_matches c sp = true ->
  exists sh, shape_of (c_body c) = Some sh /\ shape_ok sh = true /\ wf_layout (sp_len sp) (c_bits c) = true /\
    let params := map fst (c_params c) in
    let unas := filter (fun x => negb (memb_s x (assigned (sh_pre sh ++ sh_mid sh)))) params in
    forallb (kv_ok (sp_len sp) (c_bits c) params unas (sp_fields sp)) (sh_kvs sh) = true /\
    forallb (field_covered (sp_len sp) (c_bits c) params unas (sh_kvs sh)) (sp_fields sp) = true.
Proof.
  unfold ctor_matches. destruct (shape_of (c_body c)) as [sh|]; [|discriminate]. intros Hm.
  apply andb_prop in Hm as [Hm Hcov]. apply andb_prop in Hm as [Hm Hkvs].
  apply andb_prop in Hm as [Hm _]. apply andb_prop in Hm as [Hshape Hwf]. now exists sh.
Qed.

Lemma ctor_matches_wf c sp : ctor_matches c sp = true -> wf_layout (sp_len sp) (c_bits c) = true.
Proof. intros H. now destruct (ctor_matches_parts c sp H) as (sh & _ & _ & Hwf & _). Qed.

Section Main.
  Variable ext : string -> list cval -> result cval.
  Variable init_len : N -> result nat.

  Lemma run_ctor_shape op c sh G pos kw G' cm :
    shape_of (c_body c) = Some sh -> run_ctor ext op c init_len G pos kw = (G', Ok cm) ->
    exists ρ0 ρ1, bind_args c pos kw = Ok ρ0 /\
      run ext op c init_len G (ρ0, cmd0) (shape_body sh) = (G', Ok (ρ1, cm)).
  Proof.
    intros Hsh. unfold run_ctor. destruct (bind_args c pos kw) as [ρ0|]; [|discriminate].
    rewrite (shape_of_ok _ _ Hsh).
    destruct (run ext op c init_len G (ρ0, cmd0) (c_body c)) as [G1 [[ρ1 c1]|e]] eqn:Er; [|discriminate].
    intros [= -> ->]. now exists ρ0, ρ1.
  Qed.

  Theorem cdb_format_sound (c : ctor) (sp : cdb_spec) :
    ctor_matches c sp = true ->
    forall op G pos kw G' cm,
      init_len (op_value op) = Ok (sp_len sp) ->
      run_ctor ext op c init_len G pos kw = (G', Ok cm) ->
      exists ρ0 d r,
        bind_args c pos kw = Ok ρ0 /\ cdb cm = Some r /\ G' = G /\
        (* d: the values handed to build_cdb.  When they are integers within their fields' widths: *)
        (all_ints d = true -> valid_dict (sp_len sp) (c_bits c) (ints d) = true ->
           length r = sp_len sp /\ bytes_ok r /\
           encode_dict (ints d) (c_bits c) (zeros (sp_len sp)) = Ok r /\
           (* every field the standard defines carries its source's value at the standard's position *)
           (forall sf, In sf (sp_fields sp) ->
              exists g v, sgeom (sp_len sp) sf = Some g /\ tgt_field r g = v /\ src_denotes ρ0 op (sf_src sf) v) /\
           (* and every other bit is zero *)
           (forall j, (forall sf g, In sf (sp_fields sp) -> sgeom (sp_len sp) sf = Some g -> in_field g j = false) ->
              N.testbit (ba_to_int r) j = false)).
  Proof.
    intros Hm op G pos kw G' cm Hlen Hrun.
    destruct (ctor_matches_parts c sp Hm) as (sh & Hsh & Hshape & Hwf & Hkvs & Hcov).
    set (params := map fst (c_params c)) in *.
    set (asg := assigned (sh_pre sh ++ sh_mid sh)) in *.
    destruct (run_ctor_shape op c sh G pos kw G' cm Hsh Hrun) as (ρ0 & ρ1 & Hb & Er).
    destruct (ctor_shape_sound ext op c init_len sh G ρ0 G' ρ1 cm (sp_len sp) Hshape Hlen Er)
      as (ρb & d & r & Hev & Hagree & Hcdb & Henc & HG).
    exists ρ0, d, r. split; [assumption|]. split; [assumption|]. split; [assumption|].
    intros Hints Hvalid.
    rewrite (encode_cdict_ints d (c_bits c) (zeros (sp_len sp)) Hints) in Henc.
    destruct (valid_dict_parts _ _ _ Hvalid) as (_ & Hvals).
    destruct (encode_zeros_bits (sp_len sp) (c_bits c) (ints d) Hvals) as (r' & E' & Lr & Or & Br).
    rewrite Henc in E'. inversion E'; subst r'. clear E'.
    split; [assumption|]. split; [assumption|]. split; [assumption|]. split.
    - (* standard fields *)
      intros sf Hsf. rewrite forallb_forall in Hcov. specialize (Hcov sf Hsf).
      unfold field_covered in Hcov. apply existsb_exists in Hcov as ([key e] & Hkv & Hc).
      cbn [fst snd] in Hc. apply andb_prop in Hc as [Hsrc Hg].
      destruct (lookup key (c_bits c)) as [f|] eqn:Hl; [|discriminate].
      destruct (geom_of (sp_len sp) f) as [g|] eqn:Hgf; [|discriminate].
      destruct (sgeom (sp_len sp) sf) as [g'|] eqn:Hgs; [|discriminate].
      apply geom_eqb_eq in Hg. subst g'.
      destruct (eval_kvs_In ext op ρb _ d key e Hev Hkv) as (v & Hvd & Hve).
      destruct (ints_In d key v Hints Hvd) as (x & -> & Hxi).
      exists g, (tgt_field r g). split; [reflexivity|]. split; [reflexivity|].
      rewrite (encode_field_int _ _ _ r key x f g Hwf Hvalid Henc Hxi Hl Hgf).
      (* what the source denotes *)
      unfold src_matches in Hsrc. destruct (sf_src sf) as [y| |nm|k| |fn y]; destruct e; try discriminate; cbn [src_denotes]; try exact I.
      + apply andb_prop in Hsrc as [Hsrc Hun]. apply andb_prop in Hsrc as [Hxy _]. apply String.eqb_eq in Hxy. subst x0.
        rewrite <- (Hagree y (filter_unassigned y params asg Hun)). now apply eval_var in Hve.
      + rewrite eval_eq in Hve. now inversion Hve.
      + apply String.eqb_eq in Hsrc. subst name. rewrite eval_eq in Hve.
        destruct (lookup nm (op_sa op)); [|discriminate]. now inversion Hve.
      + apply N.eqb_eq in Hsrc. rewrite eval_eq in Hve. inversion Hve. congruence.
    - (* all other bits zero *)
      intros j Hj. rewrite Br.
      apply apply_writes_untouched. intros [k v] f g Hin Hl Hg. cbn [fst] in Hl.
      assert (Hk : In k (map fst (sh_kvs sh))).
      { rewrite <- (eval_kvs_keys _ _ _ _ _ Hev), <- ints_keys. eapply In_fst, Hin. }
      apply in_map_iff in Hk as ([k' e] & Ek & Hkv). cbn [fst] in Ek. subst k'.
      rewrite forallb_forall in Hkvs. specialize (Hkvs _ Hkv). unfold kv_ok in Hkvs. cbn [fst snd] in Hkvs.
      rewrite Hl, Hg in Hkvs. apply existsb_exists in Hkvs as (sf & Hsf & Hc).
      apply andb_prop in Hc as [_ Hc]. destruct (sgeom (sp_len sp) sf) as [g'|] eqn:Hgs; [|discriminate].
      apply geom_eqb_eq in Hc. subst g'. eapply Hj; eassumption.
  Qed.
End Main.
