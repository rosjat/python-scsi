(* Proofs/PyTotal3.v — READ ELEMENT STATUS, the most intricate REGENERATED decoder (a loop over element status pages, inside it a loop over
   element descriptors whose length and count come from the page header, five conditional parts per descriptor): on EVERY byte string it
   returns a value — no exception, no fuel exhaustion — within 2 len(data) + 4 units of fuel.  That value is spelled out in
   Proofs/PyParsersRES2.v (read_element_status_run), where each loop is an instance of the rule for loops that consume a buffer; the
   announced part of a report is a part of it, which gives the bound in terms of len(data).  The file also has a rule for `while` loops
   that come with a decreasing measure and nothing else. *)
From Coq Require Import String.
From PS Require Import Base.Bytes Base.Result Model.Converter Model.Py Proofs.PyLemmas Proofs.PyParsersRES Proofs.PyParsersRES2 Gen.Tables Gen.PyFuncs.
Open Scope string_scope.
Open Scope nat_scope.

Section WhileMeasure.
  Variables (T : list (string * layout)) (P : program) (c : ex) (body : list st).
  Variable Inv : env -> Prop.
  Variable mu : env -> nat.
  Variable cv : env -> pv.
  Variable m : nat.
  Hypothesis cond_ok : forall f ρ, Inv ρ -> eval (call_with P (run T P f)) ρ c = Ok (cv ρ).
  Hypothesis iter_ok : forall f ρ, m <= f -> Inv ρ -> truthy (cv ρ) = true ->
    exists ρ', exec_block T (call_with P (run T P f)) (run T P f) body ρ = ONorm ρ' /\ Inv ρ' /\ mu ρ' < mu ρ.

  Lemma while_measure : forall k f ρ, m + k <= f -> Inv ρ -> mu ρ <= k ->
    exists ρ', run T P (S f) (SWhile c body) ρ = ONorm ρ' /\ Inv ρ' /\ truthy (cv ρ') = false.
  Proof.
    induction k as [|k IH]; intros f ρ Hf HI Hmu; rewrite run_S, exec_while, (cond_ok f ρ HI); destruct (truthy (cv ρ)) eqn:Ht; eauto.
    - destruct (iter_ok f ρ ltac:(lia) HI Ht) as (ρ' & _ & _ & Hlt). lia.
    - destruct (iter_ok f ρ ltac:(lia) HI Ht) as (ρ' & -> & HI' & Hlt).
      destruct f as [|f']; [lia|]. apply IH; [lia|exact HI'|lia].
  Qed.
End WhileMeasure.

Theorem readelementstatus_total : forall (data : bytes) f, 2 * length data + 4 <= f ->
  exists v, call_fun all_tables py_program f RES [PBytes data] = Ok v.
Proof.
  intros data f Hf. eexists. apply read_element_status_run. pose proof (py_slice_length_le data _ _ : length (res_announced data) <= length data). lia.
Qed.
