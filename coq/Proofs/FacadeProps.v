(* Proofs/FacadeProps.v — shape and wiring of the regenerated facade methods, and what the shape implies for
   every call: exactly one command handed to the device, after construction, before decoding; nothing sent
   when construction is refused; nothing decoded or returned when the device reports an error. *)
From Coq Require Import String.
From PS Require Import Base.Bytes Model.Converter Model.Ctor Model.Facade Model.CorrUtil.
From PS Require Import Gen.Ctors Gen.Opcodes Gen.FacadeTbl.
Open Scope string_scope.

Definition is_lookup (a : action) : bool := match a with ALookup _ | ALookupSuffix _ => true | _ => false end.
Definition is_construct (a : action) : bool := match a with AConstruct _ | AConstructBySA _ => true | _ => false end.

Definition well_shaped (acts : list action) : bool :=
  match acts with
  | l :: c :: AExecute _ :: rest =>
      is_lookup l && is_construct c &&
      match rest with
      | [AReturn] => true
      | [AUnmarshall _ _; AReturn] => true
      | _ => false
      end
  | _ => false
  end.

Definition is_exec (e : event) : bool := match e with EvExecute _ => true | _ => false end.
Definition ev_eqb (a b : event) : bool :=
  match a, b with
  | EvLookup, EvLookup | EvConstruct, EvConstruct | EvUnmarshall, EvUnmarshall | EvReturn, EvReturn => true
  | EvExecute x, EvExecute y => Bool.eqb x y
  | _, _ => false
  end.
Definition has (e : event) (t : list event) : bool := existsb (ev_eqb e) t.
Definition count_exec (t : list event) : nat := length (filter is_exec t).

Theorem shape_sound acts : well_shaped acts = true ->
  (* a complete call: look up, construct, execute exactly once, then decode, then return *)
  (exists r, trace None acts = [EvLookup; EvConstruct; EvExecute r; EvReturn] \/
             trace None acts = [EvLookup; EvConstruct; EvExecute r; EvUnmarshall; EvReturn]) /\
  (* never more than one command is handed to the device *)
  (forall f, (count_exec (trace f acts) <= 1)%nat) /\
  (* a refused construction (or a missing opcode): nothing is sent, nothing is returned *)
  (forall f, f = Some FailConstruct \/ f = Some FailLookup ->
     count_exec (trace f acts) = 0%nat /\ has EvReturn (trace f acts) = false) /\
  (* the device reported an error: the buffer is not decoded and no command object is returned *)
  (has EvUnmarshall (trace (Some FailExecute) acts) = false /\ has EvReturn (trace (Some FailExecute) acts) = false).
Proof.
  unfold well_shaped. destruct acts as [|l [|c [|x rest]]]; try discriminate.
  destruct x; try discriminate. intros H. apply andb_prop in H as [H Hrest]. apply andb_prop in H as [Hl Hc].
  assert (El : ev_of l = Some EvLookup) by (destruct l; try discriminate; reflexivity).
  assert (Ec : ev_of c = Some EvConstruct) by (destruct c; try discriminate; reflexivity).
  assert (Er : rest = [AReturn] \/ exists kw st, rest = [AUnmarshall kw st; AReturn]).
  { destruct rest as [|y rest1]; [discriminate|]. destruct y; try discriminate.
    - destruct rest1 as [|z rest2]; [discriminate|]. destruct z; try discriminate.
      destruct rest2; [|discriminate]. right. eauto.
    - destruct rest1; [|discriminate]. now left. }
  clear Hl Hc Hrest.
  (* the two leading events, whatever the look-up and the constructor call are; the rest of the list is concrete *)
  assert (T : forall f, trace f (l :: c :: AExecute raw :: rest) =
    if fails f EvLookup then [] else EvLookup :: if fails f EvConstruct then [] else EvConstruct :: trace f (AExecute raw :: rest))
    by (intros f; cbn [trace]; now rewrite El, Ec).
  destruct Er as [->|(kw & st & ->)].
  all: split; [exists raw; rewrite T; cbn; auto|].
  all: split; [intros f; rewrite T; destruct f as [[| | |]|]; cbn; lia|].
  all: split; [intros f [->| ->]; rewrite T; cbn; auto|rewrite T; cbn; auto].
Qed.

(* ---------- wiring: the looked-up opcode and the facade's own arguments reach the right constructor parameters ---------- *)

Definition ctor_params (key : string) : option (list string * bool) :=
  match lookup key all_ctors with
  | Some c => Some (map fst (c_params c), c_kwargs c)
  | None => None
  end.

Fixpoint pos_ok (fparams : list string) (cparams : list string) (pos : list farg) : bool :=
  match pos, cparams with
  | [], _ => true
  | FBlocksize :: pos', p :: cp' => String.eqb p "blocksize" && pos_ok fparams cp' pos'
  | FArg x :: pos', p :: cp' => String.eqb p x && memb_s x fparams && pos_ok fparams cp' pos'
  | _, _ => false
  end.

Definition call_ok (m : fmethod) (c : ccall) : bool :=
  let '(key, pos, kw, star) := c in
  let fparams := map fst (f_params m) in
  match ctor_params key with
  | None => false
  | Some (cparams, ckw) =>
      (* the opcode is the first positional argument or the keyword `opcode`, exactly once *)
      match pos with
      | FOpcode :: pos' => pos_ok fparams cparams pos'
                           && forallb (fun kv => match snd kv with FArg x => memb_s (fst kv) cparams && memb_s x fparams | _ => false end) kw
      | [] => match kw with
              | ("opcode", FOpcode) :: kw' =>
                  forallb (fun kv => match snd kv with FArg x => memb_s (fst kv) cparams && memb_s x fparams | _ => false end) kw'
              | _ => false
              end
      | _ => false
      end
      && (negb star || f_kwargs m)
  end.

Definition method_wired (m : fmethod) : bool :=
  match f_acts m with
  | _ :: AConstruct c :: _ => call_ok m c
  | _ :: AConstructBySA bs :: _ =>
      forallb (fun b => let '(p, _, c) := b in memb_s p (map fst (f_params m)) && call_ok m c) bs
  | _ => false
  end.

(* ---------- get_opcode: first key (in table order) whose last two characters are the suffix ---------- *)
Definition has_suffix (suffix key : string) : bool :=
  let n := String.length key in
  String.eqb (String.substring (n - 2) 2 key) suffix.

Definition lookup_suffix (tbl : list opentry) (suffix : string) : option opentry :=
  find (fun e => has_suffix suffix (fst e)) tbl.

(* documented keyword arguments are parameters of the constructor the method calls *)
Definition doc_ok (m : fmethod) : bool :=
  match lookup (f_name m) doc_kwargs, f_acts m with
  | Some names, _ :: AConstruct (key, _, _, true) :: _ =>
      match ctor_params key with
      | Some (cparams, ckw) => forallb (fun n => memb_s n cparams) names
      | None => false
      end
  | _, _ => true
  end.
