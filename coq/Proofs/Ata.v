(* Proofs/Ata.v — SAT transfer rules for the two ATA PASS-THROUGH constructors, proved on the REGENERATED constructor IR
   for ALL values of T_LENGTH, BYT_BLOK, T_TYPE, T_DIR, block size, extra_tl, data, COUNT and FEATURES (ata12_all, ata16_all);
   the listed combinations (T_LENGTH x BYT_BLOK x T_TYPE x T_DIR x block size x extra_tl x data present x COUNT in {0, 5, 256} x
   FEATURES in {0, 3}) that Properties/ quotes are a corollary.  The remaining arguments (protocol, lba, command, ...) are
   fixed.  COUNT / FEATURES 0 matter: the SAT length is the unsigned number in the field, so 0 announces no data at all
   (it is NOT the ATA "0 means 256 sectors" rule). *)
From Coq Require Import String.
From PS Require Import Base.Bytes Base.Result Model.Converter Model.Ctor Model.InitCdb Model.CorrUtil.
From PS Require Import Spec.CdbFormats Gen.Ctors Proofs.Dict Proofs.Codec Proofs.CtorSound.
Open Scope string_scope.
Open Scope N_scope.

Record ata_flags := mkAF { af_tlen : N; af_bb : N; af_tt : N; af_dir : N; af_bs : N; af_extra : option N; af_data : option bytes; af_cnt : N; af_feat : N }.

Definition all_flags : list ata_flags :=
  flat_map (fun tl => flat_map (fun bb => flat_map (fun tt => flat_map (fun dir => flat_map (fun bs =>
  flat_map (fun ex => flat_map (fun da => flat_map (fun cnt => map (fun ft => mkAF tl bb tt dir bs ex da cnt ft) [0; 3]) [0; 5; 256])
    [None; Some [1; 2; 3]])
    [None; Some 7]) [0; 512; 4096]) [0; 1]) [0; 1]) [0; 1]) [0; 1; 2; 3].

Definition ata_kw (f : ata_flags) : list (string * cval) :=
  [("protocal", CInt 4); ("t_length", CInt (af_tlen f)); ("byte_block", CInt (af_bb f)); ("t_dir", CInt (af_dir f));
   ("t_type", CInt (af_tt f)); ("off_line", CInt 0); ("fetures", CInt (af_feat f)); ("count", CInt (af_cnt f)); ("lba", CInt 0);
   ("command", CInt 236); ("blocksize", CInt (af_bs f));
   ("extra_tl", match af_extra f with Some n => CInt n | None => CNone end);
   ("data", match af_data f with Some b => CBytes b | None => CNone end)].

(* what SAT-3 prescribes for these flags: Some (out_len, in_len), or None = refused (no block size) *)
Definition ata_expected (f : ata_flags) : option (N * N) :=
  if negb (af_tlen f =? 0) && negb (af_bb f =? 0) && negb (af_tt f =? 0) && (af_bs f =? 0) then None else
  let n := ata_count (af_tlen f) (af_feat f) (af_cnt f) (af_extra f) * ata_unit (af_bb f) (af_tt f) (af_tlen f) (af_bs f) in
  if af_dir f =? 0 then Some (n, 0) else Some (0, n).

Definition buf_is (v : cval) (n : N) (data : option bytes) (is_data_dir : bool) : bool :=
  let dflt := match v with CZeros m => m =? n | _ => false end in
  match data, is_data_dir with
  | Some b, true =>
      match b with
      | [] => dflt
      | _ => match v with CBytes b' => bytes_eqb b b' | _ => false end   (* the caller's data *)
      end
  | _, _ => dflt
  end.

Definition ata_case_ok (c : ctor) (opv : N) (f : ata_flags) : bool :=
  match snd (run_ctor (fun _ _ => Ok (CInt 0)) (mkOp opv []) c init_cdb G0 [] (ata_kw f)), ata_expected f with
  | Raise MissingBlocksize, None => true
  | Ok cm, Some (no, ni) =>
      buf_is (dataout cm) no (af_data f) (af_dir f =? 0) && buf_is (datain cm) ni (af_data f) (negb (af_dir f =? 0))
  | _, _ => false
  end.

Definition ata_ok (c : ctor) (opv : N) : bool := forallb (ata_case_ok c opv) all_flags.

Lemma ata_ok_sound c opv : ata_ok c opv = true -> forall f, In f all_flags -> ata_case_ok c opv f = true.
Proof. unfold ata_ok. intros H f Hf. rewrite forallb_forall in H. now apply H. Qed.

(* ---------- all flag values ----------
   The two bodies are the same 28 statements followed by their own build_cdb.  The 28 fall into four sections that only
   communicate through a few variables: 1-8 compute tl, 9-17 the block size (or refuse), 18-23 allocate the two buffers,
   24-28 attach the caller's data.  Each section is run symbolically once, from an ABSTRACT environment of which only the
   variables it reads are known; what it does not assign is carried across it by the frame lemma CtorSound.run_env.  So the
   paths add up (5 + 7 + 2 + 6) instead of multiplying. *)

Definition ata_pre : list gstmt := Eval cbv in firstn 28 (c_body C_scsi_cdb_atapassthrough12__ATAPassThrough12).
Definition ata_s1 : list gstmt := Eval cbv in firstn 8 ata_pre.
Definition ata_s2 : list gstmt := Eval cbv in firstn 9 (skipn 8 ata_pre).
Definition ata_s3 : list gstmt := Eval cbv in firstn 6 (skipn 17 ata_pre).
Definition ata_s4 : list gstmt := Eval cbv in skipn 23 ata_pre.

(* the environment holds the caller's keywords, except the variables in skip (assigned since) *)
Definition binds (f : ata_flags) (skip : list string) (ρ : env) : Prop :=
  forall k v, existsb (String.eqb k) skip = false -> lookup k (ata_kw f) = Some v -> lookup k ρ = Some v.

(* the assignments made so far, latest first, over the abstract environment: a look-up computes on the list *)
Definition upd (ρ u : env) : env := fold_right (fun kv a => dict_set a (fst kv) (snd kv)) ρ u.
Lemma lookup_upd ρ u x : lookup x (upd ρ u) = match lookup x u with Some v => Some v | None => lookup x ρ end.
Proof.
  induction u as [|[k v] u IH]; [reflexivity|]. cbn [upd fold_right fst snd lookup]. rewrite lookup_dict_set.
  destruct (String.eqb x k); [reflexivity|exact IH].
Qed.

Lemma bytes_eqb_refl b : bytes_eqb b b = true.
Proof. induction b as [|x b IH]; cbn [bytes_eqb]; [reflexivity|]. now rewrite N.eqb_refl. Qed.

(* here the model's chain of tests meets the specification's match for the values of T_LENGTH that neither names *)
Lemma ata_count_other tlen ft cnt ex : tlen <> 1 -> tlen <> 2 -> tlen <> 3 -> ata_count tlen ft cnt ex = 0.
Proof. intros. destruct tlen as [|[[]|[]|]]; try reflexivity; congruence. Qed.

Section Run.
  Variable ext : string -> list cval -> result cval.
  Variable op : opcode.
  Variable K : ctor.
  Variable init_len : N -> result nat.
  Notation run' := (run ext op K init_len).
  Notation exec' := (exec ext op K init_len).

  Lemma run_frame S G ρ c G' ρ' c' x :
    run' G (ρ, c) S = (G', Ok (ρ', c')) -> existsb (String.eqb x) (assigned S) = false -> lookup x ρ' = lookup x ρ.
  Proof.
    intros E Hx. eapply run_env; [exact E|]. intros Hin.
    assert (existsb (String.eqb x) (assigned S) = true) by (apply existsb_exists; exists x; split; [exact Hin|apply String.eqb_refl]).
    congruence.
  Qed.

  Lemma binds_run f skip S G ρ c G' ρ' c' :
    binds f skip ρ -> run' G (ρ, c) S = (G', Ok (ρ', c')) -> binds f (assigned S ++ skip) ρ'.
  Proof.
    intros Hb E k v Hk Hl. rewrite existsb_app in Hk. apply orb_false_elim in Hk as [Hk Hs].
    rewrite (run_frame _ _ _ _ _ _ _ _ E Hk). now apply Hb.
  Qed.

  Lemma run_seq a b G st st1 r : run' G st a = (G, Ok st1) -> run' G st1 b = r -> run' G st (a ++ b) = r.
  Proof. intros Ha <-. now rewrite run_app, Ha. Qed.
  Lemma run_seq_raise a b G st e : run' G st a = (G, Raise e) -> run' G st (a ++ b) = (G, Raise e).
  Proof. intros Ha. now rewrite run_app, Ha. Qed.

  (* one guarded statement from  upd ρ u : the guard is decided on u alone, where the temporaries it reads are (a test that
     fails makes the later ones irrelevant, so a temporary never assigned on this path is not missed); the statement is
     evaluated only if the guard holds *)
  Fixpoint guard_u (u : env) (g : list (string * bool)) : option bool :=
    match g with
    | [] => Some true
    | (x, w) :: g' => match lookup x u with
                      | Some (CInt n) => if Bool.eqb (negb (n =? 0)) w then guard_u u g' else Some false
                      | Some _ => Some false
                      | None => None
                      end
    end.
  Lemma guard_upd ρ u g : forall b, guard_u u g = Some b -> guard_holds (upd ρ u) g = b.
  Proof.
    unfold guard_holds. induction g as [|[x w] g IH]; cbn [guard_u forallb fst snd]; intros b H; [now injection H|].
    rewrite lookup_upd. destruct (lookup x u) as [[n| | | |]|]; try discriminate; try (now injection H).
    destruct (Bool.eqb (negb (n =? 0)) w); [exact (IH _ H)|now injection H].
  Qed.
  Lemma run_step g s rest G ρ u cm b r :
    guard_u u g = Some b ->
    (if b then match exec' G (upd ρ u, cm) s with (G', Ok st') => run' G' st' rest | (G', Raise e) => (G', Raise e) end
     else run' G (upd ρ u, cm) rest) = r ->
    run' G (upd ρ u, cm) ((g, s) :: rest) = r.
  Proof. intros Hu <-. cbn [run fst]. now rewrite (guard_upd _ _ _ _ Hu). Qed.
  Lemma exec_step G st s x rest r :
    exec' G st s = x -> match x with (G', Ok st') => run' G' st' rest | (G', Raise e) => (G', Raise e) end = r ->
    match exec' G st s with (G', Ok st') => run' G' st' rest | (G', Raise e) => (G', Raise e) end = r.
  Proof. now intros <-. Qed.

  (* Symbolic execution of the next statement from  upd ρ u : unfold the semantics on the concrete statement, compute the
     look-ups in u, rewrite those in ρ and the tests already decided with the hypotheses, decide what is closed.
     N.eqb is unfolded only where that leaves no match (closed numerals), so a test on a flag stays as written. *)
  #[local] Arguments N.eqb : simpl nomatch.
  Ltac look := rewrite ?lookup_upd; repeat first
    [ match goal with H : _ = _ |- _ => rewrite H end
    | progress cbn [lookup String.eqb Ascii.eqb cval_eqb truthy negb Bool.eqb andb N.eqb Pos.eqb] ].
  Ltac ev := cbn [exec eval evalc]; unfold get; look;
    try change (dict_set (upd ?r ?u) ?k ?v) with (upd r ((k, v) :: u)); reflexivity.
  Ltac stmt := eapply run_step; [lazy; reflexivity|]; cbv beta iota; try (eapply exec_step; [ev|]; cbv beta iota).
  Ltac start := match goal with |- context [run' ?G (?r, ?c)] => change (run' G (r, c)) with (run' G (upd r [], c)) end.

  Lemma ata_s1_run G ρ cm tlen ft cnt ex :
    lookup "t_length" ρ = Some (CInt tlen) -> lookup "fetures" ρ = Some (CInt ft) -> lookup "count" ρ = Some (CInt cnt) ->
    lookup "extra_tl" ρ = Some (match ex with Some n => CInt n | None => CNone end) ->
    exists ρ', run' G (ρ, cm) ata_s1 = (G, Ok (ρ', cm)) /\ lookup "tl" ρ' = Some (CInt (ata_count tlen ft cnt ex)).
  Proof.
    intros Hl Hf Hc He. unfold ata_s1.
    destruct (N.eqb_spec tlen 1) as [->|N1]; [|destruct (N.eqb_spec tlen 2) as [->|N2]; [|destruct (N.eqb_spec tlen 3) as [->|N3];
      [destruct ex|rewrite ata_count_other by assumption; apply N.eqb_neq in N1, N2, N3]]].
    all: start; eexists; (split; [repeat stmt; reflexivity|look; reflexivity]).
  Qed.

  (* the chain c5 / c6 / c8 / c9 is ata_unit, and it refuses exactly where ata_expected does: a case analysis on which of
     the four numbers are 0 (T_TYPE is not consulted when BYT_BLOK is 0, the block size only when all three are set) *)
  Lemma ata_s2_run G ρ cm bb tt tlen bs :
    lookup "byte_block" ρ = Some (CInt bb) -> lookup "t_type" ρ = Some (CInt tt) -> lookup "t_length" ρ = Some (CInt tlen) ->
    lookup "blocksize" ρ = Some (CInt bs) ->
    if negb (tlen =? 0) && negb (bb =? 0) && negb (tt =? 0) && (bs =? 0)
    then run' G (ρ, cm) ata_s2 = (G, Raise MissingBlocksize)
    else exists ρ', run' G (ρ, cm) ata_s2 = (G, Ok (ρ', cm)) /\ lookup "blocksize" ρ' = Some (CInt (ata_unit bb tt tlen bs)).
  Proof.
    intros Hb Ht Hl Hs. unfold ata_s2, ata_unit. start.
    destruct (bb =? 0) eqn:Eb; [|destruct (tt =? 0) eqn:Et]; destruct (tlen =? 0) eqn:El; cbn [negb andb];
      [..|destruct (bs =? 0) eqn:Es; [repeat stmt; reflexivity|]];
      eexists; (split; [repeat stmt; reflexivity|look; reflexivity]).
  Qed.

  Lemma ata_s3_run G ρ cm dir tl u n :
    lookup "t_dir" ρ = Some (CInt dir) -> lookup "tl" ρ = Some (CInt tl) -> lookup "blocksize" ρ = Some (CInt u) ->
    init_len (op_value op) = Ok n ->
    exists ρ', run' G (ρ, cm) ata_s3 =
      (G, Ok (ρ', mkCmd (cdb cm) (CZeros (if dir =? 0 then tl * u else 0)) (CZeros (if dir =? 0 then 0 else tl * u)) (attrs cm))).
  Proof.
    intros Hd Ht Hu Hn. unfold ata_s3. start. destruct (dir =? 0) eqn:Ed; eexists; repeat stmt; reflexivity.
  Qed.

  (* data that is None or empty is falsy and leaves the zero buffers; otherwise buf_is compares the caller's data with itself *)
  Lemma ata_s4_run G ρ cm dir da no ni :
    lookup "t_dir" ρ = Some (CInt dir) -> lookup "data" ρ = Some (match da with Some b => CBytes b | None => CNone end) ->
    dataout cm = CZeros no -> datain cm = CZeros ni ->
    exists ρ' cm', run' G (ρ, cm) ata_s4 = (G, Ok (ρ', cm')) /\
      buf_is (dataout cm') no da (dir =? 0) = true /\ buf_is (datain cm') ni da (negb (dir =? 0)) = true.
  Proof.
    intros Hd Ha Ho Hi. unfold ata_s4. start. destruct da as [[|b bs]|], (dir =? 0) eqn:Ed; do 2 eexists;
      (split; [repeat stmt; reflexivity|]); cbn [dataout datain buf_is negb]; rewrite ?Ho, ?Hi, ?N.eqb_refl, ?bytes_eqb_refl; auto.
  Qed.

  Lemma ata_pre_run G f ρ0 n : init_len (op_value op) = Ok n -> binds f [] ρ0 ->
    match ata_expected f with
    | None => run' G (ρ0, cmd0) ata_pre = (G, Raise MissingBlocksize)
    | Some (no, ni) => exists ρ cm, run' G (ρ0, cmd0) ata_pre = (G, Ok (ρ, cm)) /\
        buf_is (dataout cm) no (af_data f) (af_dir f =? 0) = true /\ buf_is (datain cm) ni (af_data f) (negb (af_dir f =? 0)) = true
    end.
  Proof.
    intros Hn B0. destruct f as [tlen bb tt dir bs ex da cnt ft]. unfold ata_expected. cbn [af_tlen af_bb af_tt af_dir af_bs af_extra af_data af_cnt af_feat].
    change ata_pre with (ata_s1 ++ ata_s2 ++ ata_s3 ++ ata_s4)%list.
    destruct (ata_s1_run G ρ0 cmd0 tlen ft cnt ex) as (ρ1 & E1 & Htl); try (apply B0; reflexivity).
    pose proof (binds_run _ _ _ _ _ _ _ _ _ B0 E1) as B1.
    pose proof (ata_s2_run G ρ1 cmd0 bb tt tlen bs (B1 "byte_block" _ eq_refl eq_refl) (B1 "t_type" _ eq_refl eq_refl)
                  (B1 "t_length" _ eq_refl eq_refl) (B1 "blocksize" _ eq_refl eq_refl)) as H2.
    destruct (negb (tlen =? 0) && negb (bb =? 0) && negb (tt =? 0) && (bs =? 0)).
    { exact (run_seq _ _ _ _ _ _ E1 (run_seq_raise _ _ _ _ _ H2)). }
    destruct H2 as (ρ2 & E2 & Hu). pose proof (binds_run _ _ _ _ _ _ _ _ _ B1 E2) as B2.
    rewrite <- (run_frame _ _ _ _ _ _ _ "tl" E2 eq_refl) in Htl.
    destruct (ata_s3_run G ρ2 cmd0 dir _ _ n (B2 "t_dir" _ eq_refl eq_refl) Htl Hu Hn) as (ρ3 & E3).
    pose proof (binds_run _ _ _ _ _ _ _ _ _ B2 E3) as B3. match type of E3 with _ = (_, Ok (_, ?c)) => set (cm3 := c) in E3 end.
    destruct (ata_s4_run G ρ3 cm3 dir da _ _ (B3 "t_dir" _ eq_refl eq_refl) (B3 "data" _ eq_refl eq_refl) eq_refl eq_refl)
      as (ρ4 & cm4 & E4 & Ho & Hi).
    pose proof (run_seq _ _ _ _ _ _ E1 (run_seq _ _ _ _ _ _ E2 (run_seq _ _ _ _ _ _ E3 E4))) as E.
    destruct (dir =? 0); exists ρ4, cm4; auto.
  Qed.
End Run.

(* ---------- build_cdb succeeds whatever the numbers are ---------- *)

Definition mask_fits (n : nat) (kf : string * fdesc) : bool :=
  match snd kf with Mask m o => negb (m =? 0) && (N.to_nat o + nbytes m <=? n)%nat | Blob _ _ _ => false end.

Lemma encode_cdict_total n L : forallb (mask_fits n) L = true ->
  forall d r, all_ints d = true -> length r = n -> exists r', encode_cdict d L r = Ok r' /\ length r' = n.
Proof.
  intros HL. induction d as [|[k v] d IH]; intros r Hd Hr; cbn [encode_cdict]; [eauto|].
  cbn [all_ints forallb snd] in Hd. apply andb_prop in Hd as [Hv Hd]. destruct v; try discriminate.
  destruct (lookup k L) as [f|] eqn:Hl; [|now apply IH].
  apply lookup_In in Hl. rewrite forallb_forall in HL. specialize (HL _ Hl). unfold mask_fits in HL. cbn [snd] in HL.
  destruct f as [m o|]; [|discriminate]. apply andb_prop in HL as [Hm Ho]. cbn [encode1].
  destruct m as [|p]; [discriminate|]. cbn [ctz]. rewrite Hr, Ho. apply IH; [exact Hd|].
  now rewrite xor_at_length.
Qed.

(* an argument of build_cdb that is a number: a parameter the 28 statements leave alone, the opcode, or a helper's result *)
Definition int_expr (ρ0 : env) (e : iexpr) : bool :=
  match e with
  | EVar x => negb (existsb (String.eqb x) (assigned ata_pre)) && match lookup x ρ0 with Some (CInt _) => true | _ => false end
  | EOpValue | ECall _ _ => true
  | _ => false
  end.

Definition build_ok (ρ0 : env) (L : layout) (n : nat) (kvs : list (string * iexpr)) : bool :=
  forallb (fun kv => int_expr ρ0 (snd kv)) kvs && match lookup "opcode" kvs with Some EOpValue => true | _ => false end
  && forallb (mask_fits n) L.

Notation ext0 := (fun (_ : string) (_ : list cval) => Ok (CInt 0)).

Lemma eval_kvs_ints op ρ0 ρ kvs :
  (forall x, existsb (String.eqb x) (assigned ata_pre) = false -> lookup x ρ = lookup x ρ0) ->
  forallb (fun kv => int_expr ρ0 (snd kv)) kvs = true -> exists d, eval_kvs ext0 op ρ kvs = Ok d /\ all_ints d = true.
Proof.
  intros Hfr. induction kvs as [|[k e] kvs IH]; cbn [forallb eval_kvs snd]; [eauto|].
  intros H. apply andb_prop in H as [He H]. destruct (IH H) as (d & -> & Hd).
  assert (exists m, eval ext0 op ρ e = Ok (CInt m)) as (m & ->).
  { destruct e; try discriminate; try (eexists; reflexivity). cbn [int_expr] in He. apply andb_prop in He as [Hx Hl].
    apply Bool.negb_true_iff in Hx. rewrite eval_eq. unfold get. rewrite (Hfr _ Hx).
    destruct (lookup x ρ0) as [[]|]; try discriminate. eauto. }
  eexists. split; [reflexivity|exact Hd].
Qed.

Theorem ata_all c opv n kvs f ρ0 :
  c_body c = (ata_pre ++ [([], SBuild 0 kvs)])%list -> init_cdb opv = Ok n -> bind_args c [] (ata_kw f) = Ok ρ0 ->
  binds f [] ρ0 -> build_ok ρ0 (c_bits c) n kvs = true -> ata_case_ok c opv f = true.
Proof.
  intros Hbody Hn Hbind B0 Hk. unfold ata_case_ok, run_ctor. rewrite Hbind, Hbody, run_app.
  pose proof (ata_pre_run ext0 (mkOp opv []) c init_cdb G0 f ρ0 n Hn B0) as Hp.
  destruct (ata_expected f) as [[no ni]|]; [|now rewrite Hp].
  destruct Hp as (ρ & cm & E & Ho & Hi). rewrite E.
  unfold build_ok in Hk. apply andb_prop in Hk as [Hk HL]. apply andb_prop in Hk as [Hk Hop].
  destruct (eval_kvs_ints (mkOp opv []) ρ0 ρ kvs) as (d & Ed & Hd); [|exact Hk|].
  { intros x Hx. exact (run_frame _ _ _ _ _ _ _ _ _ _ _ _ E Hx). }
  destruct (lookup "opcode" kvs) as [[]|] eqn:Hopc; try discriminate.
  pose proof (eval_kvs_opcode _ _ _ _ _ Ed Hopc) as Hv. cbn [op_value] in Hv.
  destruct (encode_cdict_total n (c_bits c) HL d (zeros n) Hd (zeros_length n)) as (r & Er & _).
  cbn [run guard_holds forallb fst exec]. rewrite Ed, Hv. cbn [op_value]. rewrite Hn, Er. cbn [snd dataout datain].
  now rewrite Ho, Hi.
Qed.

Lemma binds_intro f ρ : map (fun kv => lookup (fst kv) ρ) (ata_kw f) = map (fun kv => Some (snd kv)) (ata_kw f) -> binds f [] ρ.
Proof. intros H k v _ Hl. exact (ext_in_map H (k, v) (lookup_In _ _ _ Hl)). Qed.

Theorem ata12_all f : ata_case_ok C_scsi_cdb_atapassthrough12__ATAPassThrough12 161 f = true.
Proof. eapply ata_all; [reflexivity|reflexivity|reflexivity|apply binds_intro; reflexivity|reflexivity]. Qed.

Theorem ata16_all f : ata_case_ok C_scsi_cdb_atapassthrough16__ATAPassThrough16 133 f = true.
Proof. eapply ata_all; [reflexivity|reflexivity|reflexivity|apply binds_intro; reflexivity|reflexivity]. Qed.

(* the listed combinations, as a corollary of ata12_all / ata16_all *)
Lemma ata12_sweep : ata_ok C_scsi_cdb_atapassthrough12__ATAPassThrough12 161 = true.
Proof. unfold ata_ok. apply forallb_forall. intros f _. apply ata12_all. Qed.

Lemma ata16_sweep : ata_ok C_scsi_cdb_atapassthrough16__ATAPassThrough16 133 = true.
Proof. unfold ata_ok. apply forallb_forall. intros f _. apply ata16_all. Qed.
