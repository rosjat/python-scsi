(* Proofs/Termination.v — a loop  `while len(v): ...; v = v[stride:]`  whose stride is at least 1 runs at most
   len(v) iterations, whatever the bytes are and whatever else the body computes. *)
From PS Require Import Base.Bytes Model.Loops.

Lemma skipn_shrinks {A} (k : nat) (d : list A) : d <> [] -> (1 <= k)%nat -> (length (skipn k d) < length d)%nat.
Proof. intros Hd Hk. rewrite skipn_length. destruct d; [congruence|]. cbn [length]. lia. Qed.

Theorem stride_sound s e (d : bytes) : stride_ok s = true -> d <> [] ->
  (length (skipn (N.to_nat (stride_value s e)) d) < length d)%nat.
Proof.
  intros Hs Hd. apply skipn_shrinks; [assumption|].
  destruct s; cbn [stride_ok stride_value] in *; try discriminate.
  - apply N.leb_le in Hs. lia.
  - apply N.leb_le in Hs. lia.
  - lia.
Qed.

Section Term.
  Variable A : Type.
  Variable body : bytes -> A -> bytes * A.
  Hypothesis shrinks : forall d a, d <> [] -> (length (fst (body d a)) < length d)%nat.

  Theorem loop_terminates : forall fuel d a, (length d <= fuel)%nat ->
    exists r n, loop A body fuel d a = Some (r, n) /\ (n <= length d)%nat.
  Proof.
    induction fuel as [|f IH]; intros d a Hf.
    - destruct d; [|cbn in Hf; lia]. exists a, 0%nat. cbn. auto.
    - destruct d as [|x d']; [exists a, 0%nat; cbn; auto|].
      cbn [loop]. pose proof (shrinks (x :: d') a ltac:(discriminate)) as Hs.
      destruct (body (x :: d') a) as [d1 a1]. cbn [fst] in Hs.
      destruct (IH d1 a1 ltac:(cbn [length] in *; lia)) as (r & n & E & Hn). rewrite E.
      exists r, (S n). split; [reflexivity|]. cbn [length] in *. lia.
  Qed.
End Term.

(* a decoder loop described by a skeleton: the body consumes stride_value s (e d a) bytes and updates its accumulator *)
Definition skeleton_body {A} (s : stride) (e : bytes -> A -> N) (upd : bytes -> A -> A) (d : bytes) (a : A) : bytes * A :=
  (skipn (N.to_nat (stride_value s (e d a))) d, upd d a).

Theorem skeleton_terminates {A} (s : stride) (e : bytes -> A -> N) (upd : bytes -> A -> A) :
  stride_ok s = true -> forall d a,
  exists r n, loop A (skeleton_body s e upd) (length d) d a = Some (r, n) /\ (n <= length d)%nat.
Proof.
  intros Hs d a. apply loop_terminates; [|lia].
  intros d0 a0 Hd. unfold skeleton_body. cbn [fst]. now apply stride_sound.
Qed.
