(* Proofs/ExecProps.v — decidable statements about the REGENERATED execute() programs of both transports,
   over all 256 status bytes x raw-sense on/off x (no / stale) sense cached on the command object,
   and their lifting to quantified form and to arbitrary histories. *)
From PS Require Import Base.Bytes Base.Result Model.Exec Spec.SAM Gen.Opcodes Gen.Misc.
Open Scope N_scope.

Definition irun (v : N) (raw : bool) (init : ssrc) : xstate * xres :=
  iscsi_run E_SCSI_STATUS iscsi_status_prog iscsi_final v raw (mkX init SNone).
Definition srun (o : sg_outcome) (raw : bool) (init : ssrc) : xstate * xres :=
  sg_run sgio_cc_handler o raw (mkX init SNone).

Definition inits : list ssrc := [SNone; SCached].
Definition bools : list bool := [true; false].

Definition xres_is_return (r : xres) : bool := match r with XReturn => true | _ => false end.
Definition ssrc_eqb (a b : ssrc) : bool :=
  match a, b with SNone, SNone | SCached, SCached | STask, STask | SErr, SErr => true | _, _ => false end.

Definition exn_tag_eqb (a b : exn) : bool :=
  match a, b with
  | ConditionsMet, ConditionsMet | BusyStatus, BusyStatus | ReservationConflict, ReservationConflict
  | TaskSetFull, TaskSetFull | ACAActive, ACAActive | TaskAborted, TaskAborted | RuntimeError, RuntimeError => true
  | _, _ => false
  end.

Fixpoint lookupN {A} (k : N) (l : list (N * A)) : option A :=
  match l with [] => None | (k', v) :: l' => if k =? k' then Some v else lookupN k l' end.

(* what C07 demands of one iSCSI execution *)
Definition iscsi_step_ok (v : N) (raw : bool) (init : ssrc) : bool :=
  let '(st, r) := irun v raw init in
  if v =? 0 then xres_is_return r
  else match lookupN v sam_status_error, r with
       | Some ECheckCondition, XRaiseCC s => ssrc_eqb s STask && (negb raw || ssrc_eqb (x_raw st) STask)
       | Some (EOther e), XRaise e' => exn_tag_eqb e e'
       | None, XRaise _ => true                  (* any other status: an error, never a normal return *)
       | _, _ => false
       end.

Definition iscsi_ok : bool :=
  forallb (fun v => forallb (fun raw => forallb (iscsi_step_ok v raw) inits) bools) (below 256).

(* what C07 demands of one SG_IO execution *)
Definition sg_step_ok (o : sg_outcome) (raw : bool) (init : ssrc) : bool :=
  let '(st, r) := srun o raw init in
  match o, r with
  | SgReturn, XReturn => true
  | SgCheckCondition, XRaiseCC s => ssrc_eqb s SErr                                     (* surfaces as CheckCondition *)
  | SgCheckCondition, XReturn => raw && ssrc_eqb (x_raw st) SErr                        (* only with raw sense attached *)
  | SgRaises e, XRaise e' => true
  | _, _ => false
  end.
Definition sg_ok : bool :=
  forallb (fun o => forallb (fun raw => forallb (sg_step_ok o raw) inits) bools)
          [SgReturn; SgCheckCondition; SgRaises BusyStatus; SgRaises OSError].

(* a sweep over (first argument, raw, init) accepts every triple it ranged over *)
Lemma sweep_sound {A} (f : A -> bool -> ssrc -> bool) (l : list A) :
  forallb (fun x => forallb (fun raw => forallb (f x raw) inits) bools) l = true ->
  forall x raw init, In x l -> In init inits -> f x raw init = true.
Proof.
  intros H x raw init Hx Hi. rewrite forallb_forall in H. specialize (H x Hx).
  assert (Hr : In raw bools) by (destruct raw; cbn; auto).
  rewrite forallb_forall in H. specialize (H raw Hr). rewrite forallb_forall in H. now apply H.
Qed.

Lemma iscsi_sound : iscsi_ok = true ->
  forall v raw init, v < 256 -> In init inits -> iscsi_step_ok v raw init = true.
Proof. unfold iscsi_ok. intros H v raw init Hv. apply (sweep_sound _ _ H). now apply below_In. Qed.

(* ---- histories: a command object may be executed again; what an earlier execution left in cmd.sense is,
   for the next execution, a stale cached value ---- *)
Definition age (s : ssrc) : ssrc := match s with SNone => SNone | _ => SCached end.

Fixpoint iscsi_history (cmd_sense : ssrc) (h : list (N * bool)) : list (N * bool * xres) :=
  match h with
  | [] => []
  | (v, raw) :: h' =>
      let '(st, r) := irun v raw (age cmd_sense) in (v, raw, r) :: iscsi_history (x_sense st) h'
  end.

Lemma age_in s : In (age s) inits.
Proof. destruct s; cbn; auto. Qed.

(* a step the check accepts returns normally only for GOOD *)
Lemma iscsi_good_only v raw init : iscsi_step_ok v raw init = true -> snd (irun v raw init) = XReturn -> v = 0.
Proof.
  unfold iscsi_step_ok. destruct (irun v raw init) as [st r]. cbn [snd]. intros H ->.
  destruct (N.eqb_spec v 0); [assumption|].
  destruct (lookupN v sam_status_error) as [se|]; [destruct se|]; discriminate H.
Qed.

Theorem history_sound : (forall v raw init, v < 256 -> In init inits -> iscsi_step_ok v raw init = true) -> forall h s0,
  Forall (fun vr => fst vr < 256) h ->
  Forall (fun vrr => let '(v, raw, r) := vrr in
            (r = XReturn -> v = 0) /\ (v = 2 -> r = XRaiseCC STask)) (iscsi_history s0 h).
Proof.
  intros Hok h. induction h as [|[v raw] h IH]; intros s0 Hb; cbn [iscsi_history]; [constructor|].
  inversion Hb as [|? ? Hv Hb']; subst. cbn [fst] in Hv.
  pose proof (Hok v raw (age s0) Hv (age_in s0)) as Hs. pose proof (iscsi_good_only _ _ _ Hs) as Hg. unfold iscsi_step_ok in Hs.
  destruct (irun v raw (age s0)) as [st r] eqn:E. constructor; [|apply IH; assumption].
  split; [exact Hg|].
  (* status 2 is CHECK CONDITION *)
  intros ->. change (2 =? 0) with false in Hs. change (lookupN 2 sam_status_error) with (Some ECheckCondition) in Hs.
  destruct r as [|s|e]; try discriminate Hs. apply andb_prop in Hs as [Hs _].
  destruct s; try discriminate Hs. reflexivity.
Qed.
