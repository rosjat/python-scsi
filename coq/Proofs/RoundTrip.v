(* Proofs/RoundTrip.v — read-modify-write: replacing one value in a dictionary changes only that field's bits
   of the encoded buffer; and the round trip of a fixed-stride descriptor list. *)
From Coq Require Import String.
From PS Require Import Base.Bytes Base.Result Model.Converter Model.Parser Proofs.Codec Proofs.Layout Proofs.ParserProps Proofs.BuilderProps.
Open Scope string_scope.
Open Scope N_scope.

(* d[k] = v'   for a key that is present *)
Fixpoint set_val (d : list (string * value)) (k : string) (v' : value) : list (string * value) :=
  match d with
  | [] => []
  | (k1, v1) :: d' => if String.eqb k1 k then (k1, v') :: set_val d' k v' else (k1, v1) :: set_val d' k v'
  end.

Lemma set_val_keys d k v' : map fst (set_val d k v') = map fst d.
Proof. induction d as [|[k1 v1] d IH]; [reflexivity|]. cbn [set_val]. destruct (String.eqb k1 k); cbn [map fst]; now rewrite IH. Qed.

Lemma apply_writes_set n L d k v' f g : lookup k L = Some f -> geom_of n f = Some g ->
  forall old j, in_field g j = false ->
  apply_writes n L (set_val d k v') old j = apply_writes n L d old j.
Proof.
  intros Hl Hg. induction d as [|[k1 v1] d IH]; intros old j Hj; [reflexivity|].
  cbn [set_val]. destruct (String.eqb_spec k1 k) as [->|Hne]; cbn [apply_writes].
  - assert (W : forall v, write1 n L (k, v) old j = old).
    { intros v. unfold write1. cbn [fst snd]. rewrite Hl, Hg. destruct (vint f v); [now rewrite Hj|reflexivity]. }
    rewrite !W. now apply IH.
  - now apply IH.
Qed.

(* read-modify-write: after decoding, changing the value of one key and encoding again, every bit outside that
   key's field is what it was *)
Theorem rmw_only_that_field n L d k v' f g :
  wf_layout n L = true -> valid_dict n L d = true -> valid_dict n L (set_val d k v') = true ->
  lookup k L = Some f -> geom_of n f = Some g ->
  exists r1 r2, encode_dict d L (zeros n) = Ok r1 /\ encode_dict (set_val d k v') L (zeros n) = Ok r2 /\
    length r1 = n /\ length r2 = n /\
    forall j, in_field g j = false -> N.testbit (ba_to_int r2) j = N.testbit (ba_to_int r1) j.
Proof.
  intros Hwf Hvd Hvd' Hl Hg.
  destruct (valid_dict_parts _ _ _ Hvd) as (_ & Hvals). destruct (valid_dict_parts _ _ _ Hvd') as (_ & Hvals').
  destruct (encode_zeros_bits n L d Hvals) as (r1 & E1 & L1 & _ & B1).
  destruct (encode_zeros_bits n L (set_val d k v') Hvals') as (r2 & E2 & L2 & _ & B2).
  exists r1, r2. repeat split; try assumption.
  intros j Hj. rewrite B1, B2. now apply (apply_writes_set n L d k v' f g Hl Hg).
Qed.

(* a fixed-stride list: header with its length field stored as len - c, then the descriptors; decoding it with a
   decoder whose list ends at (length field + c) returns the descriptors *)
Theorem list_round_trip p c (descs : list bytes) :
  (0 < lp_stride p)%nat -> (lp_len_a p <= lp_len_b p <= lp_start p)%nat -> c = lp_bias p -> (c <= lp_start p)%nat ->
  Forall (fun d => length d = lp_stride p) descs ->
  N.of_nat (lp_start p + lp_stride p * length descs - c) < 256 ^ N.of_nat (lp_len_b p - lp_len_a p) ->
  parse_list p (store_len (zeros (lp_start p) ++ concat descs)%list (lp_len_a p) (lp_len_b p) c) = Some descs.
Proof.
  intros Hs Hab Hc Hcs Hd Hfit. subst c.
  pose proof (VarListProps.concat_length _ _ Hd) as Hcl.
  set (r := (zeros (lp_start p) ++ concat descs)%list).
  assert (Hr : length r = (lp_start p + lp_stride p * length descs)%nat) by (unfold r; rewrite app_length, zeros_length; lia).
  (* the stored buffer is  header' ++ concat descs  with header' of lp_start bytes *)
  set (hdr := (firstn (lp_len_a p) (zeros (lp_start p)) ++ int_to_ba (N.of_nat (length r - lp_bias p)) (lp_len_b p - lp_len_a p)
               ++ skipn (lp_len_b p) (zeros (lp_start p)))%list).
  assert (Hsplit : store_len r (lp_len_a p) (lp_len_b p) (lp_bias p) = (hdr ++ concat descs ++ [])%list).
  { unfold store_len, hdr, r. rewrite app_nil_r.
    rewrite firstn_app, zeros_length. replace (lp_len_a p - lp_start p)%nat with 0%nat by lia. cbn [firstn]. rewrite app_nil_r.
    rewrite skipn_app, zeros_length. replace (lp_len_b p - lp_start p)%nat with 0%nat by lia. cbn [skipn].
    rewrite !app_length, zeros_length. now rewrite <- !app_assoc. }
  rewrite Hsplit.
  assert (Hh : length hdr = lp_start p).
  { unfold hdr. rewrite !app_length, firstn_length, int_to_ba_length, skipn_length, zeros_length. lia. }
  apply parse_list_exact; try assumption; try lia.
  (* the length field of hdr reads len r - bias *)
  assert (Hf : slice hdr (lp_len_a p) (lp_len_b p) = int_to_ba (N.of_nat (length r - lp_bias p)) (lp_len_b p - lp_len_a p)).
  { apply slice_mid; [rewrite firstn_length, zeros_length; lia|apply int_to_ba_length]. }
  rewrite Hf, ba_to_int_to_ba, N.mod_small by (rewrite Hr; exact Hfit). rewrite Hr. lia.
Qed.
