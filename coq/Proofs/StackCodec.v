(* Proofs/StackCodec.v — what a standards-conformant target reads out of a CDB that encode_dict built:
   generic lemmas linking the library's mask tables to Spec/Target.v's positional reader [rd]. *)
From Coq Require Import String.
From PS Require Import Base.Bytes Base.Result Model.Converter Proofs.Codec Proofs.Layout Proofs.CdbSpec.
From PS Require Import Spec.CdbFormats Spec.Target.
Open Scope string_scope.
Open Scope N_scope.

Lemma rd_tgt_field r s b m w g :
  sgeom (length r) (F s b m w) = Some g -> rd r b m w = tgt_field r g.
Proof.
  unfold sgeom, rd, tgt_field. cbn [sf_byte sf_msb sf_width].
  destruct ((b <? N.of_nat (length r)) && (m <? 8) &&
            (w <=? 8 * (N.of_nat (length r) - b - 1) + m + 1) && (1 <=? w)); [|discriminate].
  intros H. inversion H. reflexivity.
Qed.

(* a standard position (key of the library's table, byte, msb, width); where one is made a field of Spec/CdbFormats.v below, the
   source tag `Opcode` is a dummy: sgeom does not look at it *)
Definition pos := (string * N * N * N)%type.

Definition ogeom_eqb (a b : option geom) : bool :=
  match a, b with Some x, Some y => geom_eqb x y | _, _ => false end.

Definition field_at (n : nat) (L : layout) (p : pos) : bool :=
  let '(k, b, m, w) := p in
  match lookup k L with
  | Some (Mask mk o) => ogeom_eqb (geom_of n (Mask mk o)) (sgeom n (F Opcode b m w))
  | _ => false
  end.

Definition fields_at (n : nat) (L : layout) (ps : list pos) : bool := forallb (field_at n L) ps.

(* the CDB exists, has the right length, and the target reads every listed field back *)
Theorem encode_rd n L d ps :
  wf_layout n L = true -> fields_at n L ps = true -> valid_dict n L d = true ->
  exists r, encode_dict d L (zeros n) = Ok r /\ length r = n /\ bytes_ok r /\
    forall k b m w x, In (k, b, m, w) ps -> In (k, VI x) d -> rd r b m w = x.
Proof.
  intros Hwf Hps Hvd.
  destruct (valid_dict_parts _ _ _ Hvd) as (_ & Hvals).
  destruct (encode_zeros_bits n L d Hvals) as (r & E & Lr & Or & _).
  exists r. split; [assumption|]. split; [assumption|]. split; [assumption|].
  intros k b m w x Hin Hd.
  unfold fields_at in Hps. rewrite forallb_forall in Hps. specialize (Hps _ Hin).
  unfold field_at in Hps. destruct (lookup k L) as [f|] eqn:Hl; [|discriminate].
  destruct f as [mk o|]; [|discriminate].
  destruct (geom_of n (Mask mk o)) as [g|] eqn:Hg; [|discriminate].
  destruct (sgeom n (F Opcode b m w)) as [g'|] eqn:Hs; [|discriminate].
  cbn [ogeom_eqb] in Hps. apply geom_eqb_eq in Hps. subst g'.
  rewrite <- Lr in Hs. rewrite (rd_tgt_field r Opcode b m w g Hs).
  exact (encode_field_int n L d r k x _ g Hwf Hvd E Hd Hl Hg).
Qed.

(* validity of a dictionary of integers from per-key width bounds *)
Definition width_of (n : nat) (L : layout) (k : string) : option N :=
  match lookup k L with
  | Some (Mask mk o) => match geom_of n (Mask mk o) with Some g => Some (g_w g) | None => None end
  | _ => None
  end.

Fixpoint ranges_ok (n : nat) (L : layout) (d : list (string * value)) : Prop :=
  match d with
  | [] => True
  | (k, VI x) :: d' => match width_of n L k with Some w => x < 2 ^ w | None => False end /\ ranges_ok n L d'
  | (k, VB _) :: d' => False
  end.

Lemma valid_dict_ranges n L d :
  nodupb (map fst d) = true -> ranges_ok n L d -> valid_dict n L d = true.
Proof.
  intros Hnd Hr. unfold valid_dict. rewrite Hnd. cbn [andb].
  clear Hnd. induction d as [|[k v] d IH]; [reflexivity|].
  cbn [ranges_ok] in Hr. destruct v as [x|bb]; [|contradiction]. destruct Hr as [Hk Hr].
  cbn [forallb]. rewrite (IH Hr), andb_true_r. unfold width_of in Hk.
  destruct (lookup k L) as [[mk o|]|] eqn:Hl; try contradiction.
  destruct (geom_of n (Mask mk o)) as [g|] eqn:Hg; [|contradiction].
  now apply (val_okb_in n L k (VI x) (Mask mk o) g x).
Qed.
