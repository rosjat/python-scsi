(* Proofs/DeviceProps.v — invariants of SCSIDevice over ALL event sequences (execute / replug / unplug /
   close-failure / close / exit), for the try-close-finally-open prologue. *)
From PS Require Import Base.Bytes Base.Result Model.Device.
Open Scope nat_scope.

Lemma nth_set_nth_same {A} (l : list A) i x d : i < length l -> nth i (set_nth l i x) d = x.
Proof. revert i; induction l as [|y l IH]; intros [|i] H; cbn in *; try lia; [reflexivity|apply IH; lia]. Qed.
Lemma nth_set_nth_other {A} (l : list A) i j x d : i <> j -> nth j (set_nth l i x) d = nth j l d.
Proof. revert i j; induction l as [|y l IH]; intros [|i] [|j] H; cbn; try reflexivity; try congruence. apply IH. congruence. Qed.
Lemma set_nth_length {A} (l : list A) i x : length (set_nth l i x) = length l.
Proof. revert i; induction l as [|y l IH]; intros [|i]; cbn; auto. Qed.
Lemma Forall_set_nth {A} (Q : A -> Prop) l i x : Forall Q l -> Q x -> Forall Q (set_nth l i x).
Proof. intros Hl Hx. revert i; induction Hl as [|y l Hy Hl IH]; intros [|i]; cbn; constructor; auto. Qed.

(* an id beyond the handles ever opened reads as the closed default handle *)
Lemma open_in_range w h : h_open (the_handle w h) = true -> h < length (w_handles w).
Proof.
  intros Ho. destruct (Nat.lt_ge_cases h (length (w_handles w))) as [Hl|Hl]; [assumption|].
  unfold the_handle in Ho. rewrite nth_overflow in Ho by assumption. discriminate.
Qed.

Lemma the_handle_new n x hs f hd : the_handle (mkW n x (hs ++ [hd]) f) (length hs) = hd.
Proof. apply nth_middle. Qed.

(* the current handle exists and is a handle on the inode the device remembers *)
Definition Inv (wd : world * dev) : Prop :=
  let '(w, d) := wd in d_cur d < length (w_handles w) /\ h_inode (the_handle w (d_cur d)) = d_ino d.

Definition sent_fresh (o : out) : Prop := match o with OSent _ hi node _ => node = Some hi | _ => True end.

(* every handle is released at most once at the OS level, and a released handle is not open *)
Definition handles_ok (w : world) : Prop :=
  Forall (fun h => h_closes h <= 1 /\ (h_open h = true -> h_closes h = 0)) (w_handles w).

Lemma do_close_handles w h : forall w' r, do_close w h = (w', r) ->
  length (w_handles w') = length (w_handles w) /\ w_node w' = w_node w /\ w_next w' = w_next w /\
  (forall j, h_inode (the_handle w' j) = h_inode (the_handle w j)).
Proof.
  intros w' r H. unfold do_close in H. destruct (h_open (the_handle w h)) eqn:Ho.
  - destruct (w_close_fails w); inversion H; subst; cbn [w_handles w_node w_next].
    + repeat split; auto.
    + rewrite set_nth_length. repeat split; auto. intros j. unfold the_handle at 1. cbn [w_handles].
      destruct (Nat.eq_dec h j) as [<-|Hne].
      * now rewrite nth_set_nth_same by now apply open_in_range.
      * now rewrite nth_set_nth_other.
  - inversion H; subst. repeat split; auto.
Qed.

Lemma do_close_ok w h w' r : handles_ok w -> do_close w h = (w', r) -> handles_ok w'.
Proof.
  unfold handles_ok, do_close. intros H Hc. destruct (h_open (the_handle w h)) eqn:Ho.
  - destruct (w_close_fails w); inversion Hc; subst; cbn [w_handles]; [assumption|].
    apply Forall_set_nth; [assumption|]. cbn.
    pose proof (open_in_range _ _ Ho) as Hl. unfold the_handle in *.
    rewrite Forall_forall in H. rewrite (proj2 (H _ (nth_In _ _ Hl)) Ho).
    split; [lia|discriminate].
  - inversion Hc; subst. assumption.
Qed.

Lemma do_close_closed w h : w_close_fails w = false -> h_open (the_handle (fst (do_close w h)) h) = false.
Proof.
  intros Hf. unfold do_close. destruct (h_open (the_handle w h)) eqn:Ho; [|exact Ho].
  rewrite Hf. unfold the_handle at 1. cbn [fst w_handles].
  now rewrite nth_set_nth_same by now apply open_in_range.
Qed.

Lemma do_open_ok w w2 h i : handles_ok w -> do_open w = Some (w2, h, i) -> handles_ok w2.
Proof.
  unfold handles_ok, do_open. intros H Ho. destruct (w_node w); inversion Ho; subst. cbn [w_handles].
  apply Forall_app. split; [assumption|]. repeat constructor; cbn; auto.
Qed.

Lemma step_inv wd e : Inv wd -> Inv (fst (step PTryCloseFinallyOpen wd e)).
Proof.
  destruct wd as [w d]. intros [Ha Hb]. unfold step.
  destruct e; cbn [fst]; try (split; assumption).
  2,3: destruct (do_close w (d_cur d)) as [w1 raised] eqn:Hc; cbn [fst];
    destruct (do_close_handles _ _ _ _ Hc) as (Hl & _ & _ & Hi); (split; [lia|now rewrite Hi]).
  - (* execute *)
    destruct (d_detect d); [|split; assumption].
    destruct (w_node w) as [i|] eqn:Hn; [|split; assumption].
    destruct (Nat.eqb i (d_ino d)); [split; assumption|].
    destruct (do_close w (d_cur d)) as [w1 raised] eqn:Hc.
    destruct (do_close_handles _ _ _ _ Hc) as (_ & Hn1 & _ & _).
    unfold do_open. rewrite Hn1, Hn.
    destruct raised; cbn [fst]; unfold Inv; cbn [d_cur d_ino];
      (split; [cbn [w_handles]; rewrite app_length; cbn; lia|now rewrite the_handle_new]).
Qed.

(* os.stat in _is_replugged raises; the device is left as it was *)
Lemma execute_no_node w d : d_detect d = true -> w_node w = None ->
  step PTryCloseFinallyOpen (w, d) EExecute = ((w, d), ORaised OSError).
Proof. intros Hd Hn. cbn [step]. now rewrite Hd, Hn. Qed.

(* what is sent goes through a handle on the node that exists now, and afterwards the device holds a handle on
   that node — also when closing the stale handle failed *)
Lemma execute_on_node w d i : Inv (w, d) -> d_detect d = true -> w_node w = Some i ->
  let r := step PTryCloseFinallyOpen (w, d) EExecute in
  sent_fresh (snd r) /\ d_ino (snd (fst r)) = i /\ d_detect (snd (fst r)) = true.
Proof.
  intros [Ha Hb] Hd Hn r. subst r. cbn [step]. rewrite Hd, Hn.
  destruct (Nat.eqb_spec i (d_ino d)) as [E|E]; cbn [fst snd].
  - unfold sent_fresh, send. rewrite Hn, Hb. repeat split; congruence.
  - destruct (do_close w (d_cur d)) as [w1 raised] eqn:Hc.
    destruct (do_close_handles _ _ _ _ Hc) as (_ & Hn1 & _ & _).
    unfold do_open. rewrite Hn1, Hn.
    destruct raised; cbn [fst snd d_ino d_detect]; repeat split; try assumption.
    unfold sent_fresh, send. cbn [d_cur w_node]. now rewrite the_handle_new.
Qed.

Lemma step_fresh wd e : Inv wd -> d_detect (snd wd) = true ->
  sent_fresh (snd (step PTryCloseFinallyOpen wd e)) /\ d_detect (snd (fst (step PTryCloseFinallyOpen wd e))) = true.
Proof.
  destruct wd as [w d]. intros HI Hd. cbn [snd] in Hd. destruct e.
  2-4: now split.
  2,3: cbn [step]; destruct (do_close w (d_cur d)) as [w1 []]; now split.
  destruct (w_node w) as [i|] eqn:Hn.
  - destruct (execute_on_node w d i HI Hd Hn) as (A & _ & B). now split.
  - rewrite (execute_no_node w d Hd Hn). now split.
Qed.

(* with detection disabled no event changes the device object *)
Lemma step_keep p w d e : d_detect d = false -> snd (fst (step p (w, d) e)) = d.
Proof.
  intros Hd. unfold step. destruct e; cbn [fst snd]; try reflexivity.
  2,3: destruct (do_close w (d_cur d)); reflexivity.
  rewrite Hd. reflexivity.
Qed.

Lemma step_ok p w d e : handles_ok w -> handles_ok (fst (fst (step p (w, d) e))).
Proof.
  intros H. unfold step. destruct e; cbn [fst]; try assumption.
  2,3: destruct (do_close w (d_cur d)) as [w1 r] eqn:Hc; cbn [fst]; eapply do_close_ok; eassumption.
  destruct (d_detect d); [|assumption].
  destruct p; cbn [fst]; try assumption; destruct (w_node w) as [i|]; cbn [fst]; try assumption;
    destruct (Nat.eqb i (d_ino d)); cbn [fst]; try assumption.
  - destruct (do_close w (d_cur d)) as [w1 r] eqn:Hc. pose proof (do_close_ok _ _ _ _ H Hc) as H1.
    destruct r; cbn [fst]; [assumption|]. destruct (do_open w1) as [[[w2 h] ino]|] eqn:Ho; cbn [fst]; [|assumption].
    eapply do_open_ok; eassumption.
  - destruct (do_close w (d_cur d)) as [w1 r] eqn:Hc. pose proof (do_close_ok _ _ _ _ H Hc) as H1.
    destruct (do_open w1) as [[[w2 h] ino]|] eqn:Ho; [|cbn [fst]; assumption].
    destruct r; cbn [fst]; eapply do_open_ok; eassumption.
  - destruct (do_open w) as [[[w2 h] ino]|] eqn:Ho; cbn [fst]; [|assumption]. eapply do_open_ok; eassumption.
Qed.

Lemma run_ind (Q : world * dev -> Prop) (R : out -> Prop) p :
  (forall wd e, Q wd -> Q (fst (step p wd e)) /\ R (snd (step p wd e))) ->
  forall es wd, Q wd -> Q (fst (run p wd es)) /\ Forall R (snd (run p wd es)).
Proof.
  intros Hstep. induction es as [|e es IH]; intros wd HQ; cbn [run]; [split; [assumption|constructor]|].
  destruct (Hstep wd e HQ) as [HQ1 HR]. destruct (step p wd e) as [wd1 o]. cbn [fst snd] in *.
  destruct (IH wd1 HQ1) as [HQ2 HRs]. destruct (run p wd1 es) as [wd2 os]. cbn [fst snd] in *.
  split; [assumption|constructor; assumption].
Qed.

Theorem run_fresh es wd : Inv wd -> d_detect (snd wd) = true -> Forall sent_fresh (snd (run PTryCloseFinallyOpen wd es)).
Proof.
  intros HI Hd. apply (run_ind (fun wd => Inv wd /\ d_detect (snd wd) = true)); [|now split].
  intros wd' e [HI' Hd']. destruct (step_fresh wd' e HI' Hd') as [Hs Hd'']. auto using step_inv.
Qed.

Lemma init_inv detect : Inv (init detect).
Proof. unfold Inv, init. cbn. split; [lia|reflexivity]. Qed.

(* with detection disabled the original handle is kept for ever *)
Theorem keep_handle p es wd : d_detect (snd wd) = false -> snd (fst (run p wd es)) = snd wd.
Proof.
  intros Hd. apply (run_ind (fun wd' => snd wd' = snd wd) (fun _ => True)); [|reflexivity].
  intros [w d] e Hq. cbn [snd] in Hq. subst d. split; [now apply step_keep|exact I].
Qed.

Theorem release_once p es wd : handles_ok (fst wd) -> handles_ok (fst (fst (run p wd es))).
Proof.
  intros H. apply (run_ind (fun wd' => handles_ok (fst wd')) (fun _ => True)); [|exact H].
  intros [w d] e Hq. split; [now apply step_ok|exact I].
Qed.

(* close() / leaving a with block releases the current handle (unless the close itself fails) *)
Theorem close_releases p w d : w_close_fails w = false ->
  h_open (the_handle (fst (fst (step p (w, d) EClose))) (d_cur d)) = false.
Proof.
  intros Hf. cbn [step]. pose proof (do_close_closed w (d_cur d) Hf) as H.
  destruct (do_close w (d_cur d)). exact H.
Qed.
