(* Proofs/Layout.v — dictionary-level laws of encode_dict / decode_bits for every
   well-formed layout: decode∘encode, encode∘decode, frame, order independence,
   field independence.  All sizes, all masks, all values. *)
From Coq Require Import String Permutation.
From PS Require Import Base.Bytes Base.Result Model.Converter Proofs.Dict Proofs.Codec.

(* ---------- decidable well-formedness of a layout for an n-byte buffer ---------- *)

Definition disjointb (g1 g2 : geom) : bool :=
  (g_lo g1 + g_w g1 <=? g_lo g2) || (g_lo g2 + g_w g2 <=? g_lo g1).

Fixpoint pairwise {A} (p : A -> A -> bool) (l : list A) : bool :=
  match l with [] => true | x :: l' => forallb (p x) l' && pairwise p l' end.

Fixpoint memb (k : string) (l : list string) : bool :=
  match l with [] => false | k' :: l' => String.eqb k k' || memb k l' end.

Fixpoint nodupb (l : list string) : bool :=
  match l with [] => true | k :: l' => negb (memb k l') && nodupb l' end.

Definition geoms (n : nat) (L : layout) : list (option geom) := map (fun kf => geom_of n (snd kf)) L.

Definition odisjointb (a b : option geom) : bool :=
  match a, b with Some g1, Some g2 => disjointb g1 g2 | _, _ => false end.

Definition wf_layout (n : nat) (L : layout) : bool :=
  nodupb (map fst L) && pairwise odisjointb (geoms n L)
  && forallb (fun og => match og with Some _ => true | None => false end) (geoms n L).

(* a data dictionary that is valid for layout L: distinct keys, right kind of value, in range *)
Definition val_okb (n : nat) (L : layout) (kv : string * value) : bool :=
  match lookup (fst kv) L with
  | None => true
  | Some f => match geom_of n f, vint f (snd kv) with
              | Some g, Some x => x <? 2 ^ g_w g
              | _, _ => false
              end
  end.

Definition valid_dict (n : nat) (L : layout) (d : list (string * value)) : bool :=
  nodupb (map fst d) && forallb (val_okb n L) d.

(* ---------- the effect of a whole dictionary on one bit ---------- *)

Definition write1 (n : nat) (L : layout) (kv : string * value) (old : bool) (j : N) : bool :=
  match lookup (fst kv) L with
  | Some f => match geom_of n f, vint f (snd kv) with
              | Some g, Some x => if in_field g j then write_bit f g x old j else old
              | _, _ => old
              end
  | None => old
  end.

Fixpoint apply_writes (n : nat) (L : layout) (d : list (string * value)) (old : bool) (j : N) : bool :=
  match d with
  | [] => old
  | kv :: d' => apply_writes n L d' (write1 n L kv old j) j
  end.

Lemma write1_in n L k v f g x old j :
  lookup k L = Some f -> geom_of n f = Some g -> vint f v = Some x ->
  write1 n L (k, v) old j = if in_field g j then write_bit f g x old j else old.
Proof. intros Hl Hg Hx. unfold write1. cbn [fst snd]. now rewrite Hl, Hg, Hx. Qed.

Lemma write1_out n L kv old j :
  (forall f g, lookup (fst kv) L = Some f -> geom_of n f = Some g -> in_field g j = false) ->
  write1 n L kv old j = old.
Proof.
  intros H. unfold write1. destruct (lookup (fst kv) L) as [f|]; [|reflexivity].
  destruct (geom_of n f) as [g|] eqn:Hg; [|reflexivity].
  destruct (vint f (snd kv)); [|reflexivity]. now rewrite (H f g eq_refl Hg).
Qed.

Lemma write_bit_zero f g x j : write_bit f g x false j = N.testbit x (j - g_lo g).
Proof. destruct f; [apply xorb_false_l|reflexivity]. Qed.

Theorem encode_dict_bits n L d : forall r,
  length r = n -> bytes_ok r -> forallb (val_okb n L) d = true ->
  exists r', encode_dict d L r = Ok r' /\ length r' = n /\ bytes_ok r' /\
    forall j, N.testbit (ba_to_int r') j = apply_writes n L d (N.testbit (ba_to_int r) j) j.
Proof.
  induction d as [|[k v] d IH]; intros r Hlen Hr Hv.
  - exists r. cbn [encode_dict apply_writes]. auto.
  - cbn [forallb] in Hv. apply andb_prop in Hv as [Hkv Hv].
    cbn [encode_dict apply_writes]. unfold val_okb in Hkv. cbn [fst snd] in Hkv.
    destruct (lookup k L) as [f|] eqn:Hl.
    + destruct (geom_of n f) as [g|] eqn:Hg; [|discriminate].
      destruct (vint f v) as [x|] eqn:Hx; [|discriminate].
      apply N.ltb_lt in Hkv.
      destruct (encode1_bits n r f g v x Hg Hlen Hr Hx Hkv) as (r1 & E1 & L1 & O1 & B1).
      rewrite E1. destruct (IH r1 L1 O1 Hv) as (r' & E & L' & O' & B').
      exists r'. repeat split; try assumption.
      intros j. now rewrite B', B1, (write1_in n L k v f g x _ j Hl Hg Hx).
    + destruct (IH r Hlen Hr Hv) as (r' & E & L' & O' & B'). exists r'. repeat split; try assumption.
      intros j. rewrite B', write1_out; [reflexivity|]. cbn [fst]. congruence.
Qed.

Corollary encode_zeros_bits n L d : forallb (val_okb n L) d = true ->
  exists r, encode_dict d L (zeros n) = Ok r /\ length r = n /\ bytes_ok r /\
    forall j, N.testbit (ba_to_int r) j = apply_writes n L d false j.
Proof.
  intros Hv. destruct (encode_dict_bits n L d (zeros n) (zeros_length n) (bytes_ok_zeros n) Hv) as (r & E & Lr & Or & B).
  exists r. repeat split; try assumption. intros j. now rewrite B, ba_to_int_zeros, N.bits_0.
Qed.

(* ---------- consequences of well-formedness ---------- *)

Lemma memb_In k l : memb k l = true <-> In k l.
Proof.
  induction l as [|k' l IH]; cbn [memb In]; [split; [discriminate|tauto]|].
  rewrite orb_true_iff, IH, String.eqb_eq. split; intros [H|H]; auto.
Qed.

Lemma nodupb_NoDup l : nodupb l = true -> NoDup l.
Proof.
  induction l as [|k l IH]; cbn [nodupb]; intros H; [constructor|].
  apply andb_prop in H as [H1 H2]. constructor; [|auto].
  intros Hin. apply memb_In in Hin. rewrite Hin in H1. discriminate.
Qed.

Lemma In_fst {A} (k : string) (v : A) l : In (k, v) l -> In k (map fst l).
Proof. intros H. now apply (in_map fst) in H. Qed.

Lemma disjointb_spec g1 g2 j : disjointb g1 g2 = true -> in_field g1 j = true -> in_field g2 j = false.
Proof.
  unfold disjointb. rewrite orb_true_iff, !N.leb_le. intros H H1.
  destruct (in_field_spec g1 j); [|discriminate]. destruct (in_field_spec g2 j); [lia|reflexivity].
Qed.

Lemma disjointb_sym g1 g2 : disjointb g1 g2 = disjointb g2 g1.
Proof. unfold disjointb. apply orb_comm. Qed.

Definition fields_disjoint (n : nat) (L : layout) : Prop :=
  forall k k' f f' g g', k <> k' -> In (k, f) L -> In (k', f') L ->
    geom_of n f = Some g -> geom_of n f' = Some g' ->
    forall j, in_field g j = true -> in_field g' j = false.

Lemma In_geoms n L k f : In (k, f) L -> In (geom_of n f) (geoms n L).
Proof. apply (in_map (fun kf => geom_of n (snd kf)) L (k, f)). Qed.

Lemma pairwise_disjoint n L : pairwise odisjointb (geoms n L) = true -> NoDup (map fst L) ->
  fields_disjoint n L.
Proof.
  induction L as [|[k0 f0] L IH]; cbn [geoms map pairwise fst snd]; intros Hp Hnd.
  - intros ? ? ? ? ? ? _ [].
  - apply andb_prop in Hp as [Hall Hp]. inversion Hnd as [|? ? Hni Hnd']; subst.
    assert (Hd : forall k f g0 g, In (k, f) L -> geom_of n f0 = Some g0 -> geom_of n f = Some g ->
                                  disjointb g0 g = true).
    { intros k f g0 g Hin H0 Hg. rewrite forallb_forall in Hall.
      specialize (Hall _ (In_geoms n L k f Hin)). now rewrite H0, Hg in Hall. }
    intros k k' f f' g g' Hne [E1|I1] [E2|I2] Hg Hg' j Hj.
    + congruence.
    + inversion E1; subst. eapply disjointb_spec; [eapply Hd|]; eassumption.
    + inversion E2; subst. eapply disjointb_spec; [rewrite disjointb_sym; eapply Hd|]; eassumption.
    + eapply (IH Hp Hnd'); eassumption.
Qed.

Lemma wf_layout_parts n L : wf_layout n L = true ->
  NoDup (map fst L) /\ fields_disjoint n L /\
  (forall k f, In (k, f) L -> exists g, geom_of n f = Some g).
Proof.
  unfold wf_layout. intros H. apply andb_prop in H as [H H3]. apply andb_prop in H as [H1 H2].
  apply nodupb_NoDup in H1. split; [assumption|]. split; [now apply pairwise_disjoint|].
  intros k f Hin. rewrite forallb_forall in H3. specialize (H3 _ (In_geoms n L k f Hin)).
  destruct (geom_of n f) as [g|]; [now exists g|discriminate].
Qed.

(* ---------- who writes bit j ---------- *)

Lemma apply_writes_untouched n L d old j :
  (forall kv f g, In kv d -> lookup (fst kv) L = Some f -> geom_of n f = Some g -> in_field g j = false) ->
  apply_writes n L d old j = old.
Proof.
  revert old; induction d as [|kv d IH]; intros old H; cbn [apply_writes]; [reflexivity|].
  rewrite IH by (intros; eapply H; [right|..]; eassumption).
  apply write1_out. intros f g. now apply H; left.
Qed.

(* a key that is not supplied: the other keys' fields are disjoint from its field *)
Lemma apply_writes_absent n L d k f g old j :
  wf_layout n L = true -> In (k, f) L -> geom_of n f = Some g -> in_field g j = true ->
  ~ In k (map fst d) -> apply_writes n L d old j = old.
Proof.
  intros Hwf Hin Hg Hj Hk. destruct (wf_layout_parts n L Hwf) as (_ & Hdis & _).
  apply apply_writes_untouched. intros [k2 v2] f2 g2 Hin2 Hl2 Hg2. cbn [fst] in Hl2.
  apply (Hdis k k2 f f2 g g2); auto using lookup_In.
  intros ->. eapply Hk, In_fst, Hin2.
Qed.

Lemma apply_writes_in n L d : wf_layout n L = true -> NoDup (map fst d) ->
  forall k v f g x old j, In (k, v) d -> lookup k L = Some f -> geom_of n f = Some g -> vint f v = Some x ->
  in_field g j = true ->
  apply_writes n L d old j = write_bit f g x old j.
Proof.
  intros Hwf. induction d as [|[k1 v1] d IH]; intros Hnd k v f g x old j Hin Hl Hg Hx Hj; [contradiction|].
  cbn [map fst] in Hnd. inversion Hnd as [|? ? Hni Hnd']; subst.
  cbn [apply_writes]. destruct Hin as [E|Hin].
  - inversion E; subst k1 v1. rewrite (write1_in n L k v f g x old j Hl Hg Hx), Hj.
    apply (apply_writes_absent n L d k f g); auto using lookup_In.
  - replace (write1 n L (k1, v1) old j) with old; [eapply IH; eassumption|]. symmetry.
    apply (apply_writes_absent n L [(k1, v1)] k f g); auto using lookup_In.
    cbn [map fst]. intros [->|[]]. eapply Hni, In_fst, Hin.
Qed.

Lemma owner_dec n L (d : list (string * value)) j :
  (exists k v f g, In (k, v) d /\ lookup k L = Some f /\ geom_of n f = Some g /\ in_field g j = true) \/
  (forall kv f g, In kv d -> lookup (fst kv) L = Some f -> geom_of n f = Some g -> in_field g j = false).
Proof.
  set (owns := fun kv : string * value =>
    match lookup (fst kv) L with
    | Some f => match geom_of n f with Some g => in_field g j | None => false end
    | None => false
    end).
  destruct (existsb owns d) eqn:E.
  - left. apply existsb_exists in E as ([k v] & Hin & Ho). unfold owns in Ho. cbn [fst] in Ho.
    destruct (lookup k L) as [f|] eqn:Hl; [|discriminate]. destruct (geom_of n f) as [g|] eqn:Hg; [|discriminate].
    now exists k, v, f, g.
  - right. intros kv f g Hin Hl Hg. rewrite <- E. symmetry.
    destruct (in_field g j) eqn:Hj; [|now rewrite E]. apply existsb_exists. exists kv. split; [assumption|].
    unfold owns. now rewrite Hl, Hg.
Qed.

(* ---------- the laws ---------- *)

Definition zero_value (f : fdesc) : value :=
  match f with Mask _ _ => VI 0 | Blob u _ len => VB (zeros (N.to_nat (len * u))) end.

Lemma vint_zero f : vint f (zero_value f) = Some 0.
Proof.
  destruct f as [m o|u o len]; [reflexivity|].
  cbn [zero_value]. rewrite vint_VB, ba_to_int_zeros; auto using zeros_length, bytes_ok_zeros.
Qed.

Lemma valid_dict_parts n L d : valid_dict n L d = true ->
  NoDup (map fst d) /\ forallb (val_okb n L) d = true.
Proof. unfold valid_dict. intros H. apply andb_prop in H as [A B]. split; [now apply nodupb_NoDup|assumption]. Qed.

Lemma val_okb_in n L k v f g x : lookup k L = Some f -> geom_of n f = Some g -> vint f v = Some x ->
  x < 2 ^ g_w g -> val_okb n L (k, v) = true.
Proof. intros Hl Hg Hx Hr. unfold val_okb. cbn [fst snd]. rewrite Hl, Hg, Hx. now apply N.ltb_lt. Qed.

Lemma val_ok_in n L d k v f g : forallb (val_okb n L) d = true -> In (k, v) d ->
  lookup k L = Some f -> geom_of n f = Some g -> exists x, vint f v = Some x /\ x < 2 ^ g_w g.
Proof.
  intros H Hin Hl Hg. rewrite forallb_forall in H. specialize (H _ Hin).
  unfold val_okb in H. cbn [fst snd] in H. rewrite Hl, Hg in H.
  destruct (vint f v) as [x|]; [|discriminate]. exists x. split; [reflexivity|now apply N.ltb_lt].
Qed.

(* encoding into a zero buffer: the bits of a supplied field are the bits of its value *)
Lemma encode_field_bits n L d r0 r k v f g :
  wf_layout n L = true -> valid_dict n L d = true -> length r0 = n -> bytes_ok r0 -> ba_to_int r0 = 0 ->
  encode_dict d L r0 = Ok r -> In (k, v) d -> lookup k L = Some f -> geom_of n f = Some g ->
  exists x, vint f v = Some x /\
    forall i, N.testbit x i = (i <? g_w g) && N.testbit (ba_to_int r) (g_lo g + i).
Proof.
  intros Hwf Hvd Hlen Hr Hz E Hin Hl Hg. destruct (valid_dict_parts n L d Hvd) as (Hnd & Hvals).
  destruct (val_ok_in n L d k v f g Hvals Hin Hl Hg) as (x & Hx & Hxr). exists x. split; [assumption|].
  destruct (encode_dict_bits n L d r0 Hlen Hr Hvals) as (r' & E' & _ & _ & B).
  rewrite E in E'. inversion E'; subst r'.
  intros i. rewrite B, Hz, N.bits_0. destruct (N.ltb_spec i (g_w g)) as [Hi|Hi]; cbn [andb].
  - rewrite (apply_writes_in n L d Hwf Hnd k v f g x _ _ Hin Hl Hg Hx (in_field_lo g i Hi)), write_bit_zero.
    f_equal. lia.
  - now apply bits_above with (g_w g).
Qed.

(* decode after encode returns the value — for every field of the layout:
   the supplied value for supplied keys, the prior content of the buffer's bits otherwise. *)
Theorem decode_encode_field n L d r k f :
  wf_layout n L = true -> valid_dict n L d = true ->
  length r = n -> bytes_ok r -> In (k, f) L ->
  exists r', encode_dict d L r = Ok r' /\ length r' = n /\ bytes_ok r' /\
    (forall v, In (k, v) d -> ba_to_int r = 0 -> decode1 r' f = Ok v) /\
    (~ In k (map fst d) -> decode1 r' f = decode1 r f).
Proof.
  intros Hwf Hvd Hlen Hr Hin.
  destruct (wf_layout_parts n L Hwf) as (HndL & _ & Hgeo). destruct (Hgeo k f Hin) as [g Hg].
  destruct (valid_dict_parts n L d Hvd) as (_ & Hvals).
  destruct (encode_dict_bits n L d r Hlen Hr Hvals) as (r' & E & L' & O' & B).
  exists r'. repeat split; try assumption.
  - intros v Hv Hz.
    destruct (encode_field_bits n L d r r' k v f g Hwf Hvd Hlen Hr Hz E Hv (lookup_nodup L k f HndL Hin) Hg)
      as (x & Hx & Bx).
    now apply (decode1_unique n r' f g v x).
  - intros Hnk. apply (decode1_ext n r' r f g); try assumption.
    intros j Hj. rewrite B. now apply (apply_writes_absent n L d k f g).
Qed.

Corollary decode_encode_zeros n L d k f :
  wf_layout n L = true -> valid_dict n L d = true -> In (k, f) L ->
  exists r, encode_dict d L (zeros n) = Ok r /\ length r = n /\ bytes_ok r /\
    (forall v, In (k, v) d -> decode1 r f = Ok v) /\
    (~ In k (map fst d) -> decode1 r f = decode1 (zeros n) f).
Proof.
  intros Hwf Hvd Hin.
  destruct (decode_encode_field n L d (zeros n) k f Hwf Hvd (zeros_length n) (bytes_ok_zeros n) Hin)
    as (r & E & Lr & Or & Hdec & Hother).
  exists r. repeat split; try assumption. intros v Hv. apply Hdec; [assumption|apply ba_to_int_zeros].
Qed.

(* frame: bits outside every supplied field are unchanged *)
Theorem encode_frame n L d r :
  valid_dict n L d = true -> length r = n -> bytes_ok r ->
  exists r', encode_dict d L r = Ok r' /\ length r' = n /\
    forall j, (forall k v f g, In (k, v) d -> lookup k L = Some f -> geom_of n f = Some g -> in_field g j = false) ->
      N.testbit (ba_to_int r') j = N.testbit (ba_to_int r) j.
Proof.
  intros Hvd Hlen Hr. destruct (valid_dict_parts n L d Hvd) as (Hnd & Hvals).
  destruct (encode_dict_bits n L d r Hlen Hr Hvals) as (r' & E & L' & O' & B).
  exists r'. repeat split; try assumption.
  intros j H. rewrite B. apply apply_writes_untouched.
  intros [k v] f g Hin Hl Hg. eapply H; eassumption.
Qed.

Lemma apply_writes_perm n L d d' : wf_layout n L = true ->
  valid_dict n L d = true -> Permutation d d' ->
  forall old j, apply_writes n L d old j = apply_writes n L d' old j.
Proof.
  intros Hwf Hvd Hp old j.
  destruct (valid_dict_parts n L d Hvd) as (Hnd & Hvals).
  assert (Hnd' : NoDup (map fst d')) by (eapply Permutation_NoDup; [apply Permutation_map; eassumption|assumption]).
  destruct (owner_dec n L d j) as [(k & v & f & g & Hin & Hl & Hg & Hown)|Hnone].
  - destruct (val_ok_in n L d k v f g Hvals Hin Hl Hg) as (x & Hx & _).
    rewrite (apply_writes_in n L d Hwf Hnd k v f g x old j Hin Hl Hg Hx Hown).
    now rewrite (apply_writes_in n L d' Hwf Hnd' k v f g x old j (Permutation_in _ Hp Hin) Hl Hg Hx Hown).
  - rewrite !apply_writes_untouched; [reflexivity| |assumption].
    intros kv f g Hin. apply Hnone. eapply Permutation_in; [apply Permutation_sym; eassumption|assumption].
Qed.

Lemma forallb_perm {A} (p : A -> bool) l l' : Permutation l l' -> forallb p l = true -> forallb p l' = true.
Proof.
  intros Hp H. rewrite forallb_forall in *. intros x Hx. apply H.
  eapply Permutation_in; [apply Permutation_sym; eassumption|assumption].
Qed.

(* order independence *)
Theorem encode_perm n L d d' r :
  wf_layout n L = true -> valid_dict n L d = true -> Permutation d d' ->
  length r = n -> bytes_ok r ->
  exists r', encode_dict d L r = Ok r' /\ encode_dict d' L r = Ok r'.
Proof.
  intros Hwf Hvd Hp Hlen Hr.
  destruct (valid_dict_parts n L d Hvd) as (Hnd & Hvals).
  pose proof (forallb_perm _ _ _ Hp Hvals) as Hvals'.
  destruct (encode_dict_bits n L d r Hlen Hr Hvals) as (r1 & E1 & L1 & O1 & B1).
  destruct (encode_dict_bits n L d' r Hlen Hr Hvals') as (r2 & E2 & L2 & O2 & B2).
  exists r1. split; [assumption|]. rewrite E2. f_equal.
  apply bytes_eq_of_int; try assumption; [congruence|].
  apply N.bits_inj. intros j. rewrite B1, B2. symmetry. now apply apply_writes_perm.
Qed.

Lemma decode_bits_fields n L b :
  (forall k f, In (k, f) L -> exists g, geom_of n f = Some g) -> length b = n -> bytes_ok b ->
  exists d, decode_bits b L = Ok d /\ map fst d = map fst L /\
    forall k v, In (k, v) d -> exists f, In (k, f) L /\ decode1 b f = Ok v.
Proof.
  intros Hgeo Hlen Hb. induction L as [|[k f] L IH].
  - exists []. repeat split. intros ? ? [].
  - destruct (Hgeo k f (or_introl eq_refl)) as [g Hg].
    destruct (decode1_bits n b f g Hg Hlen Hb) as (v & _ & D & _).
    destruct IH as (d & D0 & K0 & P0); [intros; eapply Hgeo; right; eassumption|].
    exists ((k, v) :: d). cbn [decode_bits map fst]. rewrite D, D0, K0. repeat split.
    intros k1 v1 [E|Hin].
    + inversion E; subst. exists f. split; [now left|assumption].
    + destruct (P0 k1 v1 Hin) as (f1 & I1 & D1). exists f1. split; [now right|assumption].
Qed.

(* encode after decode reproduces a buffer whose bits outside the fields are zero *)
Theorem encode_decode n L b :
  wf_layout n L = true -> length b = n -> bytes_ok b ->
  (forall j, (forall k f g, In (k, f) L -> geom_of n f = Some g -> in_field g j = false) ->
             N.testbit (ba_to_int b) j = false) ->
  exists d, decode_bits b L = Ok d /\ encode_dict d L (zeros n) = Ok b.
Proof.
  intros Hwf Hlen Hb Hout.
  destruct (wf_layout_parts n L Hwf) as (HndL & _ & Hgeo).
  destruct (decode_bits_fields n L b Hgeo Hlen Hb) as (d & D & K & P).
  exists d. split; [assumption|].
  (* each entry of d carries the in-range integer of its field's bits *)
  assert (Hd : forall k v f g, In (k, v) d -> lookup k L = Some f -> geom_of n f = Some g ->
            exists x, vint f v = Some x /\ x < 2 ^ g_w g /\
              forall i, N.testbit x i = (i <? g_w g) && N.testbit (ba_to_int b) (g_lo g + i)).
  { intros k v f g Hin Hl Hg. destruct (P k v Hin) as (f1 & I1 & D1).
    rewrite (lookup_nodup L k f1 HndL I1) in Hl. inversion Hl; subst f1.
    destruct (decode1_bits n b f g Hg Hlen Hb) as (v' & x & D' & R). exists x. congruence. }
  assert (Hndd : NoDup (map fst d)) by now rewrite K.
  assert (Hvals : forallb (val_okb n L) d = true).
  { apply forallb_forall. intros [k v] Hin. destruct (P k v Hin) as (f & Hf & _). destruct (Hgeo k f Hf) as [g Hg].
    pose proof (lookup_nodup L k f HndL Hf) as Hl.
    destruct (Hd k v f g Hin Hl Hg) as (x & Vx & Bx & _). now apply (val_okb_in n L k v f g x). }
  destruct (encode_zeros_bits n L d Hvals) as (r' & E & L' & O' & B).
  rewrite E. f_equal. apply bytes_eq_of_int; try assumption; [congruence|].
  apply N.bits_inj. intros j. rewrite B.
  destruct (owner_dec n L d j) as [(k & v & f & g & Hin & Hl & Hg & Hown)|Hnone].
  - destruct (Hd k v f g Hin Hl Hg) as (x & Vx & _ & Bits).
    rewrite (apply_writes_in n L d Hwf Hndd k v f g x false j Hin Hl Hg Vx Hown), write_bit_zero, Bits.
    destruct (in_field_spec g j); [|discriminate].
    destruct (N.ltb_spec (j - g_lo g) (g_w g)); [|lia]. cbn [andb]. f_equal. lia.
  - rewrite apply_writes_untouched by assumption. symmetry. apply Hout. intros k f g Hin Hg.
    assert (Hk : In k (map fst d)) by (rewrite K; eapply In_fst, Hin).
    apply in_map_iff in Hk as ([k' v] & <- & Hv). apply (Hnone _ f g Hv); [|assumption].
    now apply lookup_nodup.
Qed.

(* field independence: two valid dictionaries that agree except at key k produce buffers whose
   other fields decode identically *)
Theorem field_independence n L d d' r k k2 f2 :
  wf_layout n L = true -> valid_dict n L d = true -> valid_dict n L d' = true ->
  length r = n -> bytes_ok r ->
  map fst d = map fst d' ->
  (forall k1 v, k1 <> k -> (In (k1, v) d <-> In (k1, v) d')) ->
  In (k2, f2) L -> k2 <> k ->
  exists r1 r2, encode_dict d L r = Ok r1 /\ encode_dict d' L r = Ok r2 /\
                decode1 r1 f2 = decode1 r2 f2.
Proof.
  intros Hwf Hvd Hvd' Hlen Hr Hkeys Hagree Hin2 Hne.
  destruct (wf_layout_parts n L Hwf) as (HndL & _ & Hgeo). destruct (Hgeo k2 f2 Hin2) as [g2 Hg2].
  destruct (valid_dict_parts n L d Hvd) as (Hnd & Hvals).
  destruct (valid_dict_parts n L d' Hvd') as (Hnd' & Hvals').
  destruct (encode_dict_bits n L d r Hlen Hr Hvals) as (r1 & E1 & L1 & O1 & B1).
  destruct (encode_dict_bits n L d' r Hlen Hr Hvals') as (r2 & E2 & L2 & O2 & B2).
  exists r1, r2. repeat split; try assumption.
  apply (decode1_ext n r1 r2 f2 g2); try assumption.
  intros j Hj. rewrite B1, B2.
  destruct (in_dec string_dec k2 (map fst d)) as [Hk|Hk].
  - apply in_map_iff in Hk as ([k' v] & Ek & Hv). cbn [fst] in Ek. subst k'.
    pose proof (lookup_nodup L k2 f2 HndL Hin2) as Hl2.
    destruct (val_ok_in n L d k2 v f2 g2 Hvals Hv Hl2 Hg2) as (x & Hx & _).
    rewrite (apply_writes_in n L d Hwf Hnd k2 v f2 g2 x _ _ Hv Hl2 Hg2 Hx Hj).
    apply (Hagree k2 v Hne) in Hv.
    now rewrite (apply_writes_in n L d' Hwf Hnd' k2 v f2 g2 x _ _ Hv Hl2 Hg2 Hx Hj).
  - rewrite !(apply_writes_absent n L _ k2 f2 g2) by (rewrite <- ?Hkeys; assumption). reflexivity.
Qed.
