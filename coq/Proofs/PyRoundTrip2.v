(* Proofs/PyRoundTrip2.v — both directions of a structure whose descriptors carry their own length, over the REGENERATED bodies
   (Gen/PyFuncs.v) under Model/Py.v: REPORT PRIORITY.  The builder writes, per dictionary, the 8 fixed bytes with ADDITIONAL LENGTH set to
   the length of the TransportID it appends, and PRIORITY PARAMETER DATA LENGTH to what follows; decoding what was built returns the
   dictionaries, whole and in order; for any number of descriptors and any TransportID lengths below 2^16. *)
From Coq Require Import String ZArith.
From PS Require Import Base.Bytes Base.Result Model.Converter Model.Py Proofs.PyLemmas Proofs.PyParsers Proofs.PyTotal2 Proofs.PyRoundTrip Proofs.Layout Gen.Tables Gen.PyFuncs.
Open Scope string_scope.
Open Scope nat_scope.

Definition RPRIM := "scsi_cdb_report_priority.ReportPriority.marshall_datain".
Notation PF_rprim := PF_scsi_cdb_report_priority_ReportPriority_marshall_datain.
Lemma rprim_lookup : lookup RPRIM py_program = Some PF_rprim.
Proof. vm_compute. reflexivity. Qed.

(* keys the table does not know are skipped by encode_dict *)
Lemma encode_pv_app_unknown d k v L : lookup k L = None -> forall r, encode_pv (d ++ [(k, v)])%list L r = encode_pv d L r.
Proof.
  intros Hk. induction d as [|[k' v'] d IH]; intros r.
  - change ([] ++ [(k, v)])%list with [(k, v)]. unfold encode_pv. rewrite Hk. reflexivity.
  - change (((k', v') :: d) ++ [(k, v)])%list with ((k', v') :: (d ++ [(k, v)]))%list.
    unfold encode_pv. fold encode_pv. destruct (lookup k' L) as [f|]; [|apply IH].
    match goal with |- match ?c with _ => _ end = _ => destruct c as [x|e]; [|reflexivity] end.
    destruct (encode1 r f x); [apply IH|reflexivity].
Qed.

(* one descriptor: the dictionary of table fields, its TransportID, and the 8 bytes encode_dict makes of the fields *)
Record rp_item := mkRpi { rpi_fields : list (string * value); rpi_tid : bytes; rpi_enc : bytes }.
Definition rpi_dict (p : rp_item) : pv := PDict (dict_of_decoded (rpi_fields p) ++ [("transport_id", PBytes (rpi_tid p))])%list.
Definition rpi_len (p : rp_item) : bytes := int_to_ba (N.of_nat (length (rpi_tid p))) 2.
Definition rpi_bytes (p : rp_item) : bytes := ((firstn 6 (rpi_enc p) ++ rpi_len p) ++ rpi_tid p)%list.
Definition rpi_ok (p : rp_item) : Prop :=
  encode_dict (rpi_fields p) T_rpri (zeros 8) = Ok (rpi_enc p) /\ length (rpi_enc p) = 8 /\
  lookup "transport_id" (dict_of_decoded (rpi_fields p)) = None.

Lemma rprim_turn call again (p : rp_item) pre ρ : rpi_ok p -> lookup "result" ρ = Some (PBytes pre) ->
  exists ρ', exec_block all_tables call again (for_body (fn_body PF_rprim) 2) (dict_set ρ "l" (rpi_dict p)) = ONorm ρ' /\
             lookup "result" ρ' = Some (PBytes (pre ++ rpi_bytes p)%list).
Proof.
  intros (Henc & Hlen & Hfresh) Hres. cbn [for_body nth fn_body PF_rprim].
  step. rewrite (bytearray_zeros _ 8) by lia.
  step. unfold rpi_dict at 1. rewrite rpri_table. unfold with_var. lk.
  rewrite encode_pv_app_unknown by reflexivity. rewrite encode_pv_of_decoded, Henc.
  (* _r[6:8] = scsi_int_to_ba(len(l["transport_id"]), 2) *)
  step. unfold rpi_dict at 1. cbn [index_eval]. rewrite (lookup_app_none _ _ _ Hfresh). cbn [lookup String.eqb Ascii.eqb Bool.eqb len_eval as_int].
  unfold with_var. lk.
  rewrite (int_to_ba_z_nat _ _ (length (rpi_tid p)) 2), (store_slice_mid (rpi_enc p) _ _ _ 6 8) by lia. rewrite skipn_all2, app_nil_r by lia.
  step. unfold rpi_dict at 1. cbn [index_eval]. rewrite (lookup_app_none _ _ _ Hfresh). cbn [lookup String.eqb Ascii.eqb Bool.eqb bin_eval].
  rewrite Hres. cbn [bin_eval as_int]. rewrite exec_block_nil.
  eexists. split; [reflexivity|]. lk. reflexivity.
Qed.

Theorem reportpriority_build_exact : forall (all : list rp_item) f, Forall rpi_ok all -> 1 <= f ->
  call_fun all_tables py_program f RPRIM [PDict [("priority_descriptors", PList (map rpi_dict all))]]
  = Ok (PBytes (int_to_ba (N.of_nat (length (concat (map rpi_bytes all)))) 4 ++ concat (map rpi_bytes all))%list).
Proof.
  exact (list_builder_exact RPRIM "priority_descriptors" PF_rprim 4 4 _ _ _ _ rprim_lookup eq_refl eq_refl
           ltac:(lia) ltac:(lia) ltac:(lia) rprim_turn).
Qed.

(* ------------------------------------------------------------------ dict -> bytes -> dict *)
Lemma rpri_wf8 : wf_layout 8 T_rpri = true.
Proof. vm_compute. reflexivity. Qed.

(* a complete valid dictionary whose ADDITIONAL LENGTH is the length of its TransportID: the eight bytes encode_dict makes of it already
   carry that length in bytes 6..7 (so the builder's explicit store does not change them), and they decode to the dictionary *)
Lemma rp_enc_consistent (dv : list (string * value)) (tid : bytes) :
  valid_dict 8 T_rpri dv = true -> map fst dv = map fst T_rpri -> In ("adlen", VI (N.of_nat (length tid))) dv ->
  exists enc, encode_dict dv T_rpri (zeros 8) = Ok enc /\ length enc = 8 /\
    (firstn 6 enc ++ int_to_ba (N.of_nat (length tid)) 2)%list = enc /\ decode_bits enc T_rpri = Ok dv.
Proof.
  intros Hv Hk Ha.
  destruct (decode_encode_zeros 8 T_rpri dv "adlen" (Mask 65535 6) rpri_wf8 Hv ltac:(right; right; left; reflexivity))
    as (enc & Henc & Hlen & Hok & Hdec & _).
  exists enc. split; [exact Henc|]. split; [exact Hlen|]. split.
  - specialize (Hdec _ Ha).
    unfold decode1 in Hdec. change (ctz 65535) with (Some 0%N) in Hdec. cbv iota in Hdec. change (nbytes 65535) with 2 in Hdec.
    change (N.to_nat 6) with 6 in Hdec. change (6 + 2) with 8 in Hdec.
    rewrite !N.shiftr_0_r in Hdec. injection Hdec as Hdec.
    assert (Hs : slice enc 6 8 = skipn 6 enc).
    { unfold slice. change (8 - 6) with 2. apply firstn_all2. rewrite skipn_length. lia. }
    rewrite Hs in Hdec.
    assert (Hl2 : length (skipn 6 enc) = 2) by (rewrite skipn_length; lia).
    pose proof (ba_to_int_bound (skipn 6 enc) (bytes_ok_skipn 6 enc Hok)) as Hb. rewrite Hl2 in Hb. change (256 ^ N.of_nat 2)%N with 65536%N in Hb.
    change 65535%N with (N.ones 16) in Hdec. rewrite N.land_ones in Hdec. change (2 ^ 16)%N with 65536%N in Hdec.
    rewrite N.mod_small in Hdec by exact Hb.
    rewrite <- Hdec. pose proof (int_to_ba_to_int (skipn 6 enc) (bytes_ok_skipn 6 enc Hok)) as Hi. rewrite Hl2 in Hi. rewrite Hi. apply firstn_skipn.
  - exact (decode_bits_of_encoded 8 T_rpri dv enc rpri_wf8 Hv Hk Henc).
Qed.

Definition rp_item_dict (it : list (string * value) * bytes) : pv :=
  PDict (dict_of_decoded (fst it) ++ [("transport_id", PBytes (snd it))])%list.

Definition rp_item_ok (it : list (string * value) * bytes) : Prop :=
  valid_dict 8 T_rpri (fst it) = true /\ map fst (fst it) = map fst T_rpri /\ In ("adlen", VI (N.of_nat (length (snd it)))) (fst it).

(* build, then parse: every list of complete valid descriptor dictionaries with their TransportIDs comes back, whole and in order — any
   number of them, any TransportID lengths (the ADDITIONAL LENGTH field being what it must be), as long as the whole fits the 32-bit
   PRIORITY PARAMETER DATA LENGTH *)
Theorem reportpriority_parse_inverts_build : forall (items : list (list (string * value) * bytes)) f,
  Forall rp_item_ok items ->
  (Z.of_nat (fold_right (fun it acc => (8 + length (snd it) + acc)%nat) 0%nat items) < 4294967296)%Z -> length items + 2 <= f ->
  exists built, call_fun all_tables py_program f RPRIM [PDict [("priority_descriptors", PList (map rp_item_dict items))]] = Ok (PBytes built) /\
    call_fun all_tables py_program f RPRI [PBytes built] = Ok (PDict [("priority_descriptors", PList (map rp_item_dict items))]).
Proof.
  intros items f Hall Hsmall Hf.
  (* the eight fixed bytes of each item *)
  destruct (Forall_choice _ (fun p => rpi_ok p /\ (firstn 6 (rpi_enc p) ++ rpi_len p)%list = rpi_enc p /\ decode_bits (rpi_enc p) T_rpri = Ok (rpi_fields p)
                                     /\ lookup "adlen" (dict_of_decoded (rpi_fields p)) = Some (PInt (Z.of_nat (length (rpi_tid p)))))
             (fun p => (rpi_fields p, rpi_tid p)) items Hall) as (ps & Hm & Hp).
  { intros [dv tid] (Hv & Hk & Ha). cbn [fst snd] in *. destruct (rp_enc_consistent dv tid Hv Hk Ha) as (enc & He & Hl & Hc & Hd).
    destruct (valid_dict_parts _ _ _ Hv) as (Hnd & _). pose proof (lookup_dict_of_decoded dv _ _ Hnd Ha) as Hla. cbn [pv_of_value] in Hla.
    assert (Hlt : lookup "transport_id" (dict_of_decoded dv) = None) by (apply lookup_not_in; rewrite dict_of_decoded_names, Hk; reflexivity).
    exists (mkRpi dv tid enc). split; [reflexivity|]. unfold rpi_ok, rpi_len. cbn [rpi_fields rpi_tid rpi_enc].
    rewrite nat_N_Z in Hla. repeat split; assumption. }
  assert (Hdicts : map rp_item_dict items = map rpi_dict ps).
  { rewrite <- Hm, map_map. reflexivity. }
  assert (Hok : Forall rpi_ok ps) by (eapply Forall_impl; [|exact Hp]; intros p H; apply H).
  pose proof (reportpriority_build_exact ps f Hok ltac:(lia)) as Hbuild.
  rewrite Hdicts. eexists. split; [exact Hbuild|].
  (* what was built is a conformant REPORT PRIORITY response *)
  set (descs := map (fun p => mkPd (rpi_enc p) (rpi_tid p)) ps).
  assert (Hbytes : map rpi_bytes ps = map pd_bytes descs).
  { unfold descs. rewrite map_map. apply map_ext_in. intros p Hin. rewrite Forall_forall in Hp. destruct (Hp _ Hin) as (_ & Hc & _).
    unfold rpi_bytes, pd_bytes. cbn [pd_fixed pd_tid]. now rewrite Hc. }
  assert (Hpd : Forall pd_ok descs).
  { unfold descs. apply Forall_map. eapply Forall_impl; [|exact Hp]. intros p ((_ & Hl & _) & _ & Hd & Hla).
    unfold pd_ok, pd_fields. cbn [pd_fixed pd_tid]. split; [exact Hl|]. unfold decode_total. rewrite Hd. exact Hla. }
  assert (Hlen : length (concat (map pd_bytes descs)) = fold_right (fun it acc => 8 + length (snd it) + acc) 0 items).
  { rewrite <- Hm. unfold descs. clear -Hp. induction Hp as [|p ps ((_ & Hl & _) & _) _ IH]; [reflexivity|].
    cbn [map fold_right snd]. change (concat (?x :: ?l)) with (x ++ concat l)%list. rewrite app_length, IH. unfold pd_bytes. cbn [pd_fixed pd_tid].
    rewrite app_length, Hl. lia. }
  rewrite Hbytes.
  pose proof (report_priority_exact (int_to_ba (N.of_nat (length (concat (map pd_bytes descs)))) 4) descs [] f) as Hex.
  rewrite app_nil_r in Hex. rewrite Hex.
  - do 5 f_equal. unfold descs. rewrite map_map. apply map_ext_in. intros p Hin.
    rewrite Forall_forall in Hp. destruct (Hp _ Hin) as (_ & _ & Hd & _).
    unfold pd_dict, rpi_dict, pd_fields. cbn [pd_fixed pd_tid]. unfold decode_total. now rewrite Hd.
  - apply int_to_ba_length.
  - exact Hpd.
  - rewrite ba_to_int_to_ba. rewrite N.mod_small by (change (256 ^ N.of_nat 4)%N with 4294967296%N; lia). lia.
  - unfold descs. rewrite map_length. rewrite <- Hm, map_length in Hf. lia.
Qed.
