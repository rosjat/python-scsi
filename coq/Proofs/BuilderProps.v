(* Proofs/BuilderProps.v — parameter data the library composes: values land at the standard's positions, length
   fields read back as the number of bytes that follow, iSCSI names are padded to a multiple of four. *)
From Coq Require Import String.
From PS Require Import Base.Bytes Base.Result Model.Converter Model.Parser Model.ParserInst Proofs.Dict.
From PS Require Import Proofs.Layout Proofs.ParserProps Spec.RespFormats Spec.ParamRules Gen.Builders.
Open Scope string_scope.
Open Scope N_scope.

(* ---------- (1) encode puts each supplied value where the standard's reader finds it ---------- *)

Theorem encode_places_standard n L flds d :
  wf_layout n L = true -> fields_ok L flds = true -> valid_dict n L d = true ->
  exists r, encode_dict d L (zeros n) = Ok r /\ length r = n /\
    forall k b m w x, In (k, b, m, w) flds -> In (k, VI x) d -> std_read r b m w = x.
Proof.
  intros Hwf Hf Hvd.
  destruct (encode_zeros_bits n L d (proj2 (valid_dict_parts _ _ _ Hvd))) as (r & E & Lr & _).
  exists r. split; [assumption|]. split; [assumption|].
  intros k b m w x Hin Hd.
  unfold fields_ok in Hf. rewrite forallb_forall in Hf. specialize (Hf _ Hin). unfold field_ok in Hf.
  destruct (lookup k L) as [f|] eqn:Hl; [|discriminate].
  destruct (decode_encode_zeros n L d k f Hwf Hvd (lookup_In _ _ _ Hl)) as (r2 & E2 & _ & _ & Hdec & _).
  rewrite E in E2. inversion E2; subst r2. specialize (Hdec (VI x) Hd).
  destruct f as [mk o|u o len].
  - rewrite (decode1_std r mk o b m w Hf) in Hdec. now inversion Hdec.
  - cbn [decode1] in Hdec. discriminate.
Qed.

Definition param_format_ok (name : string) : bool :=
  match lookup name resp_formats with
  | Some (names, n, flds) =>
      match layout_of names with
      | Some L => wf_layout n L && fields_ok L flds
      | None => false
      end
  | None => false
  end.

Definition param_formats_ok : bool := forallb param_format_ok param_formats.

Theorem param_formats_sound : param_formats_ok = true ->
  forall name, In name param_formats ->
  exists names n flds L, lookup name resp_formats = Some (names, n, flds) /\ layout_of names = Some L /\
    forall d, valid_dict n L d = true ->
    exists r, encode_dict d L (zeros n) = Ok r /\ length r = n /\
      forall k b m w x, In (k, b, m, w) flds -> In (k, VI x) d -> std_read r b m w = x.
Proof.
  unfold param_formats_ok. intros H name Hin. rewrite forallb_forall in H. specialize (H _ Hin).
  unfold param_format_ok in H. destruct (lookup name resp_formats) as [[[names n] flds]|] eqn:E1; [|discriminate].
  destruct (layout_of names) as [L|] eqn:E2; [|discriminate]. apply andb_prop in H as [Hwf Hf].
  exists names, n, flds, L. split; [reflexivity|]. split; [exact E2|].
  intros d Hvd. now apply encode_places_standard.
Qed.

(* ---------- (2) length fields ---------- *)

(* X[a:b] = scsi_int_to_ba(len(X) - c, b - a) *)
Definition store_len (r : bytes) (a b c : nat) : bytes :=
  (firstn a r ++ int_to_ba (N.of_nat (length r - c)) (b - a) ++ skipn b r)%list.

Lemma store_len_spec r a b c : (a <= b <= length r)%nat -> N.of_nat (length r - c) < 256 ^ N.of_nat (b - a) ->
  length (store_len r a b c) = length r /\
  ba_to_int (slice (store_len r a b c) a b) = N.of_nat (length r - c).
Proof.
  intros Hab Hfit. unfold store_len. split.
  - rewrite !app_length, firstn_length, int_to_ba_length, skipn_length. lia.
  - rewrite slice_mid by (rewrite ?firstn_length, ?int_to_ba_length; lia).
    rewrite ba_to_int_to_ba. now apply N.mod_small.
Qed.

Definition triple_eqb (x y : nat * nat * nat) : bool :=
  let '(a, b, c) := x in let '(a', b', c') := y in Nat.eqb a a' && Nat.eqb b b' && Nat.eqb c c'.

(* every builder the specification names stores exactly the standard's length, and no builder stores any other *)
Definition length_stores_ok : bool :=
  forallb (fun r => existsb (fun s => String.eqb (fst s) (fst r) && triple_eqb (snd s) (snd r)) length_stores) length_rules
  && forallb (fun s => existsb (fun r => String.eqb (fst s) (fst r) && triple_eqb (snd s) (snd r)) length_rules) length_stores
  && match unknown_builders with [] => true | _ => false end.

(* ---------- (3) iSCSI name padding ---------- *)

Lemma pad4_len_spec n : pad4_len n mod 4 = 0 /\ n + 1 <= pad4_len n /\ pad4_len n <= n + 4.
Proof.
  unfold pad4_len. destruct (N.eqb_spec ((n + 1) mod 4) 0) as [E|E].
  - split; [assumption|]. split; lia.
  - pose proof (N.mod_upper_bound (n + 1) 4 ltac:(discriminate)) as B.
    pose proof (N.div_mod (n + 1) 4 ltac:(discriminate)) as D.
    set (m := (n + 1) mod 4) in *. set (q := (n + 1) / 4) in *.
    split; [|split; lia].
    replace (n + 1 + (4 - m)) with ((q + 1) * 4) by lia.
    apply N.mod_mul. discriminate.
Qed.
