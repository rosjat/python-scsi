(* Proofs/PyBuilders.v — the REGENERATED parameter-list builders (Gen/PyFuncs.v) under the semantics of Model/Py.v:
   PERSISTENT RESERVE OUT parameter lists are the header the library's table encodes — with the length fields set to the lengths
   of what actually follows — followed by exactly the TransportID(s) the TransportID builder returned.
   What the builder proofs share (entering a function, the branch an `if x == k` cascade takes, bytearray(n), stores into
   slices, loops that append) is in PyLemmas.v. *)
From Coq Require Import String ZArith.
From PS Require Import Base.Bytes Base.Result Model.Converter Model.Py Proofs.PyLemmas Gen.Tables Gen.PyFuncs.
Open Scope string_scope.
Open Scope nat_scope.

Definition PROUT := "scsi_cdb_persistentreserveout.PersistentReserveOut.marshall_dataout".
Definition MTI := "scsi_cdb_persistentreservein.PersistentReserveInReadFullStatus.marshall_transport_id".
Notation PF_prout := PF_scsi_cdb_persistentreserveout_PersistentReserveOut_marshall_dataout.
Definition T_ram := T_scsi_cdb_persistentreserveout__PersistentReserveOut___ram_parameter_list_bits.
Definition T_basic := T_scsi_cdb_persistentreserveout__PersistentReserveOut___basic_parameter_list_bits.

Lemma prout_lookup : lookup PROUT py_program = Some PF_prout.
Proof. vm_compute. reflexivity. Qed.
Lemma ram_table : lookup "scsi_cdb_persistentreserveout.PersistentReserveOut._ram_parameter_list_bits" all_tables = Some T_ram.
Proof. vm_compute. reflexivity. Qed.
Lemma basic_table : lookup "scsi_cdb_persistentreserveout.PersistentReserveOut._basic_parameter_list_bits" all_tables = Some T_basic.
Proof. vm_compute. reflexivity. Qed.

(* an OpCode object whose service-action enumeration assigns `v` to `name` *)
Definition opcode_has (op : pv) (name : string) (v : Z) : Prop :=
  exists od sad, op = PDict od /\ lookup "__obj__" od <> None /\ lookup "serviceaction" od = Some (PDict sad) /\
                 lookup "__obj__" sad <> None /\ lookup name sad = Some (PInt v).

(* service_action == opcode.serviceaction.<name> *)
Notation sa_is name := (ECmp CEq (EVar "service_action") (EAttr (EAttr (EVar "opcode") "serviceaction") name)).

Lemma eval_sa_is call ρ op name sa v : lookup "service_action" ρ = Some (PInt sa) -> lookup "opcode" ρ = Some op -> opcode_has op name v ->
  eval call ρ (sa_is name) = Ok (PBool (Z.eqb sa v)).
Proof.
  intros Hsa Hop (od & sad & -> & Ho & Hs & Hso & Hn). cbn [eval]. rewrite Hsa, Hop. cbn [attr_eval].
  destruct (lookup "__obj__" od); [|contradiction]. rewrite Hs. cbn [attr_eval]. destruct (lookup "__obj__" sad); [|contradiction]. now rewrite Hn.
Qed.

Lemma eval_and call ρ a b : eval call ρ (EAnd a b) =
  match eval call ρ a with Raise x => Raise x | Ok v => if truthy v then eval call ρ b else Ok v end.
Proof. reflexivity. Qed.

(* which of the three parameter lists the builder makes: REGISTER AND MOVE; REGISTER with SPEC_I_PT; every other case *)
Lemma prout_dispatch call again op sa sam sar data A B C rest ρ :
  lookup "service_action" ρ = Some (PInt sa) -> lookup "opcode" ρ = Some op -> lookup "data" ρ = Some (PDict data) ->
  opcode_has op "REGISTER_AND_MOVE" sam -> (sa <> sam -> opcode_has op "REGISTER" sar) ->
  exec_block all_tables call again
    (SIf (sa_is "REGISTER_AND_MOVE") A [SIf (EAnd (sa_is "REGISTER") (EGet (EVar "data") (EConst (PStr "spec_i_pt")) None)) B C] :: rest) ρ =
  exec_block all_tables call again
    ((if Z.eqb sa sam then A
      else if Z.eqb sa sar && truthy (match lookup "spec_i_pt" data with Some v => v | None => PNone end) then B else C) ++ rest) ρ.
Proof.
  intros Hsa Hop Hd Hm Hr. rewrite exec_block_app, exec_block_cons, exec_if, (eval_sa_is call ρ op _ sa sam Hsa Hop Hm). cbn [truthy].
  destruct (Z.eqb_spec sa sam) as [|Hne]; [reflexivity|].
  rewrite exec_block_cons, exec_if, eval_and, (eval_sa_is call ρ op _ sa sar Hsa Hop (Hr Hne)). cbn [truthy].
  destruct (Z.eqb sa sar); cbn [andb eval truthy]; [rewrite Hd|]; match goal with |- context [exec_block _ _ _ ?b ρ] => destruct (exec_block all_tables call again b ρ) end; reflexivity.
Qed.

(* REGISTER AND MOVE with a TransportID: 24-byte list encoded from the caller's values with TRANSPORTID PARAMETER DATA LENGTH set to the
   length of the TransportID that follows, then that TransportID *)
Theorem prout_register_and_move_exact : forall (op tid : pv) (sa : Z) (data : list (string * pv)) (tidb hdr : bytes) f,
  opcode_has op "REGISTER_AND_MOVE" sa ->
  lookup "transport_id" data = Some tid -> truthy tid = true ->
  call_fun all_tables py_program f MTI [tid] = Ok (PBytes tidb) ->
  encode_pv (dict_set data "transportid_length" (PInt (Z.of_nat (length tidb)))) T_ram (zeros 24) = Ok hdr ->
  call_fun all_tables py_program (S f) PROUT [op; PInt sa; PDict data] = Ok (PBytes (hdr ++ tidb)%list).
Proof.
  intros op tid sa data tidb hdr f Hop Htid Htr Hcall Henc.
  eapply call_with_ret; [exact prout_lookup|reflexivity|]. cbn [fn_body PF_prout].
  (* sar := 0: the code of REGISTER is not consulted when sa is that of REGISTER AND MOVE *)
  rewrite (prout_dispatch _ _ op sa sa 0 data) by (reflexivity || assumption || contradiction). rewrite Z.eqb_refl. cbn [app].
  cstep. cbn [copy_eval].
  cstep. rewrite (bytearray_zeros _ 24) by lia.
  rewrite exec_block_cons, exec_if. cbn [eval lookup String.eqb Ascii.eqb Bool.eqb]. rewrite Htid, Htr.
  cstep. rewrite Htid. unfold call_fun, MTI in Hcall. rewrite Hcall.
  cstep. cbn [len_eval].
  cstep. rewrite ram_table, Henc.
  cstep. reflexivity.
Qed.

(* the plain 24-byte list of every other service action *)
Theorem prout_basic_exact : forall (op : pv) (sa sam sar : Z) (data : list (string * pv)) (hdr : bytes) f,
  opcode_has op "REGISTER_AND_MOVE" sam -> opcode_has op "REGISTER" sar ->
  sa <> sam -> (sa <> sar \/ match lookup "spec_i_pt" data with Some v => truthy v = false | None => True end) ->
  encode_pv data T_basic (zeros 24) = Ok hdr ->
  call_fun all_tables py_program (S f) PROUT [op; PInt sa; PDict data] = Ok (PBytes hdr).
Proof.
  intros op sa sam sar data hdr f Hm Hr Hne Hor Henc.
  eapply call_with_ret; [exact prout_lookup|reflexivity|]. cbn [fn_body PF_prout].
  rewrite (prout_dispatch _ _ op sa sam sar data) by (reflexivity || auto).
  destruct (Z.eqb_spec sa sam); [contradiction|].
  assert (Hc : Z.eqb sa sar && truthy (match lookup "spec_i_pt" data with Some v => v | None => PNone end) = false).
  { destruct (Z.eqb_spec sa sar); [|reflexivity]. destruct Hor as [Hx|Hx]; [contradiction|]. destruct (lookup "spec_i_pt" data); [exact Hx|reflexivity]. }
  rewrite Hc. cbn [app].
  cstep. rewrite (bytearray_zeros _ 24) by lia.
  cstep. rewrite basic_table, Henc.
  cstep. reflexivity.
Qed.

(* REGISTER with SPEC_I_PT: 28-byte header whose TRANSPORTID PARAMETER DATA LENGTH (bytes 24..27) is the total length of the
   TransportIDs that follow, then every TransportID the builder returned, in the caller's order — for any number of them *)
Fixpoint tids_built (call : string -> list pv -> result pv) (ts : list pv) (bs : list bytes) : Prop :=
  match ts, bs with
  | [], [] => True
  | t :: ts', b :: bs' => call MTI [t] = Ok (PBytes b) /\ tids_built call ts' bs'
  | _, _ => False
  end.

Lemma spec_i_pt_loop call again : forall (ts : list pv) (bs done : list bytes) ρ,
  tids_built call ts bs -> lookup "transport_ids" ρ = Some (PList (map PBytes done)) ->
  exists ρ', for_iter all_tables call again "t"
               [SAppend "transport_ids" [] (ECall MTI [EVar "t"])] ts ρ = ONorm ρ' /\
    lookup "transport_ids" ρ' = Some (PList (map PBytes (done ++ bs))) /\
    (forall x, x <> "transport_ids" -> x <> "t" -> lookup x ρ' = lookup x ρ).
Proof.
  induction ts as [|t ts IH]; intros bs done ρ Hb Hl; destruct bs as [|b bs]; cbn [tids_built] in Hb; try contradiction.
  - exists ρ. cbn [for_iter]. rewrite app_nil_r. auto.
  - destruct Hb as [Hc Hb]. cbn [for_iter]. rewrite exec_block_cons. cbn [exec exec_simple eval eval_list]. lk. rewrite Hc.
    unfold with_var. lk. rewrite Hl. cbn [update_at]. rewrite exec_block_nil.
    destruct (IH bs (done ++ [b])%list (dict_set (dict_set ρ "t" t) "transport_ids" (PList (map PBytes done ++ [PBytes b]))) Hb) as (ρ' & Hrun & Hl' & Hfr).
    { lk. rewrite map_app. reflexivity. }
    exists ρ'. split; [exact Hrun|]. split; [rewrite Hl', <- app_assoc; reflexivity|].
    intros x H1 H2. rewrite Hfr by assumption. now rewrite !lookup_set_other by congruence.
Qed.

Lemma join_bytes_map (bs : list bytes) : join_bytes (map PBytes bs) = Ok (concat bs).
Proof. induction bs as [|b bs IH]; [reflexivity|]. cbn [map join_bytes concat]. now rewrite IH. Qed.

Theorem prout_register_spec_i_pt_exact : forall (op : pv) (sam sar : Z) (data : list (string * pv)) (sp : pv) (ts : list pv) (bs : list bytes) (hdr : bytes) f,
  opcode_has op "REGISTER_AND_MOVE" sam -> opcode_has op "REGISTER" sar -> sar <> sam ->
  lookup "spec_i_pt" data = Some sp -> truthy sp = true -> lookup "transport_ids" data = Some (PList ts) ->
  tids_built (call_with py_program (run all_tables py_program f)) ts bs ->
  encode_pv data T_basic (zeros 28) = Ok hdr -> length hdr = 28 ->
  call_fun all_tables py_program (S f) PROUT [op; PInt sar; PDict data]
  = Ok (PBytes (firstn 24 hdr ++ int_to_ba (N.of_nat (length (concat bs))) 4 ++ concat bs)%list).
Proof.
  intros op sam sar data sp ts bs hdr f Hm Hr Hne Hsp Htr Hts Hb Henc Hlen.
  eapply call_with_ret; [exact prout_lookup|reflexivity|]. cbn [fn_body PF_prout].
  rewrite (prout_dispatch _ _ op sar sam sar data) by (reflexivity || auto).
  destruct (Z.eqb_spec sar sam); [contradiction|]. rewrite Z.eqb_refl, Hsp, Htr. cbn [andb app].
  cstep. rewrite (bytearray_zeros _ 28) by lia.
  cstep. rewrite basic_table, Henc.
  cstep.
  rewrite exec_block_cons, exec_for. cbn [eval lookup String.eqb Ascii.eqb Bool.eqb]. rewrite Hts. cbn [iter_items].
  match goal with |- context [for_iter _ ?c ?a "t" _ ts ?r0] =>
    destruct (spec_i_pt_loop c a ts bs [] r0 Hb eq_refl) as (ρ' & Hrun & Hl & Hfr) end.
  unfold MTI in Hrun. rewrite Hrun. change (@nil bytes ++ bs)%list with bs in Hl.
  step. rewrite Hl. cbn [join_eval]. rewrite join_bytes_map.
  step. cbn [len_eval as_int]. unfold with_var. lk. rewrite Hfr by discriminate. cbn [lookup String.eqb Ascii.eqb Bool.eqb].
  rewrite (int_to_ba_z_nat _ _ (length (concat bs)) 4), (store_slice_mid hdr _ _ _ 24 28) by lia.
  rewrite (skipn_all2 hdr) by lia. rewrite app_nil_r.
  step. cbn [bin_eval as_int]. rewrite <- app_assoc. reflexivity.
Qed.

Notation PAD4 := "scsi_cdb_persistentreservein._pad4_len".
Notation PF_mti := PF_scsi_cdb_persistentreservein_PersistentReserveInReadFullStatus_marshall_transport_id.
Definition T_tid := T_scsi_cdb_persistentreservein__PersistentReserveInReadFullStatus___transport_id_bits.

Lemma mti_lookup : lookup MTI py_program = Some PF_mti.
Proof. vm_compute. reflexivity. Qed.
Lemma pad4_lookup : lookup PAD4 py_program = Some PF_scsi_cdb_persistentreservein__pad4_len.
Proof. vm_compute. reflexivity. Qed.
Lemma tid_table : lookup "scsi_cdb_persistentreservein.PersistentReserveInReadFullStatus._transport_id_bits" all_tables = Some T_tid.
Proof. vm_compute. reflexivity. Qed.

(* the builder is: read the protocol identifier; unless it is 5, encode the table fields into 24 zero bytes; the cascade on the protocol
   identifier; return *)
Definition mti_chain : st := nth 2 (fn_body PF_mti) SPass.
Lemma mti_body : fn_body PF_mti = (firstn 2 (fn_body PF_mti) ++ [mti_chain; SReturn (EVar "result")])%list.
Proof. reflexivity. Qed.

(* len(s) + 1 rounded up to a multiple of four *)
Definition pad4 (n : nat) : nat := let l := n + 1 in if Nat.eqb (l mod 4) 0 then l else l + (4 - l mod 4).

Lemma pad4_props n : pad4 n mod 4 = 0 /\ n + 1 <= pad4 n /\ pad4 n <= n + 4.
Proof.
  unfold pad4. cbv zeta. pose proof (Nat.mod_upper_bound (n + 1) 4 ltac:(lia)) as Hb.
  destruct (Nat.eqb_spec ((n + 1) mod 4) 0) as [E|E].
  - repeat split; [exact E|lia|lia].
  - repeat split; [|lia|lia].
    pose proof (Nat.div_mod (n + 1) 4 ltac:(lia)) as Hd.
    replace (n + 1 + (4 - (n + 1) mod 4)) with (((n + 1) / 4 + 1) * 4) by lia. apply Nat.mod_mul. lia.
Qed.

Lemma pad4_call (name : bytes) f :
  call_with py_program (run all_tables py_program (S f)) PAD4 [PBytes name] = Ok (PInt (Z.of_nat (pad4 (length name)))).
Proof.
  eapply call_with_ret; [exact pad4_lookup|reflexivity|]. cbn [fn_body PF_scsi_cdb_persistentreservein__pad4_len].
  step. cbn [lookup String.eqb Ascii.eqb Bool.eqb len_eval bin_eval as_int].
  step. cbn [bin_eval as_int Z.eqb].
  rewrite exec_block_cons, exec_if. cbn [eval]. lk. cbn [truthy].
  set (n := length name).
  assert (Hmod : ((Z.of_nat n + 1) mod 4)%Z = Z.of_nat ((n + 1) mod 4)).
  { rewrite Nat2Z.inj_mod. f_equal. lia. }
  unfold pad4. cbv zeta. fold n. rewrite Hmod.
  destruct (Nat.eqb_spec ((n + 1) mod 4) 0) as [E|E].
  - rewrite E. cbn [Z.of_nat Z.eqb negb]. rewrite exec_block_nil.
    step. f_equal. f_equal. lia.
  - destruct (Z.eqb_spec (Z.of_nat ((n + 1) mod 4)) 0) as [E2|E2]; [lia|]. cbn [negb].
    step. cbn [bin_eval as_int]. f_equal. f_equal.
    pose proof (Nat.mod_upper_bound (n + 1) 4 ltac:(lia)). lia.
Qed.

(* encode_dict(data, _transport_id_bits, result): of the two keys only protocol_id is in the table *)
Lemma tid_encode_iscsi s k : encode_pv [("protocol_id", PInt 5); ("iscsi_name", PStr s)] T_tid (zeros (4 + k)) = Ok (5 :: 0 :: 0 :: 0 :: zeros k)%N.
Proof. reflexivity. Qed.

(* iSCSI TransportID, TPID format 00b (name only): [05h, 00h, ADDITIONAL LENGTH (2 bytes), name, NUL padding] where ADDITIONAL LENGTH is
   the number of bytes that follow it = len(name)+1 rounded up to a multiple of four — for every (ASCII) name *)
Theorem iscsi_transport_id_format0 : forall (s : string) (name : bytes) f,
  bytes_of_string s = Some name -> 2 <= f ->
  (Z.of_nat (length name) <= 1000000)%Z ->
  call_fun all_tables py_program f MTI [PDict [("protocol_id", PInt 5); ("iscsi_name", PStr s)]]
  = Ok (PBytes ([5%N; 0%N] ++ int_to_ba (N.of_nat (pad4 (length name))) 2 ++ name ++ zeros (pad4 (length name) - length name))%list).
Proof.
  intros s name f Hs Hf Hn. destruct f as [|[|f]]; [lia|lia|].
  pose proof (pad4_props (length name)) as (_ & Hplo & Phi). set (n := length name) in *. set (pad := pad4 n) in *.
  eapply call_with_ret; [exact mti_lookup|reflexivity|]. rewrite mti_body. cbn [firstn fn_body PF_mti app].
  cstep.
  rewrite exec_block_cons, exec_if. cbn [eval lookup String.eqb Ascii.eqb Bool.eqb cmp_eval py_eq as_int Z.eqb Pos.eqb negb truthy]. rewrite exec_block_nil.
  rewrite (exec_chain all_tables _ _ "_protocol_id" 5) by reflexivity.
  set (br := chain_branch "_protocol_id" 5 mti_chain). cbv in (value of br). subst br. cbn [app].
  (* the two consistency guards *)
  rewrite exec_block_cons, exec_if. cbn [eval lookup String.eqb Ascii.eqb Bool.eqb truthy]. rewrite exec_block_nil.
  rewrite exec_block_cons, exec_if. cbn [eval lookup String.eqb Ascii.eqb Bool.eqb truthy].
  cstep. rewrite exec_block_nil.
  cstep. cbn [encode_str_eval]. rewrite Hs.
  (* result = bytearray(4 + _pad4_len(_name)) *)
  cstep. rewrite (pad4_call name f). fold n. fold pad. cbn [bin_eval as_int]. rewrite (bytearray_zeros _ (4 + pad)) by lia.
  cstep. rewrite tid_table, tid_encode_iscsi.
  (* result[2:4] = scsi_int_to_ba(len(result) - 4, 2) *)
  destruct (int_to_ba_2 (N.of_nat pad)) as (a & b & Hab).
  cstep. cbn [len_eval bin_eval as_int length]. rewrite zeros_length.
  rewrite (int_to_ba_z_nat _ _ pad 2), (store_slice_mid _ _ _ _ 2 4) by (cbn [length]; lia). rewrite Hab. cbn [firstn skipn app].
  (* result[4 : len(_name) + 4] = _name *)
  cstep. cbn [len_eval bin_eval as_int]. fold n.
  rewrite (store_slice_mid _ name _ _ 4 (4 + n)) by (cbn [length]; rewrite ?zeros_length; lia).
  cstep. cbn [firstn skipn Nat.add app]. unfold zeros. rewrite skipn_repeat'. reflexivity.
Qed.

(* what a reader of SPC finds in that TransportID: ADDITIONAL LENGTH (bytes 2..3) is the number of bytes that follow it, the whole
   is a multiple of four bytes long, the name starts at byte 4 and is followed by at least one NUL *)
Definition iscsi_tid0 (name : bytes) : bytes :=
  ([5%N; 0%N] ++ int_to_ba (N.of_nat (pad4 (length name))) 2 ++ name ++ zeros (pad4 (length name) - length name))%list.

Theorem iscsi_tid0_honest : forall name : bytes, (Z.of_nat (length name) <= 65000)%Z ->
  let t := iscsi_tid0 name in
  length t = 4 + pad4 (length name) /\ length t mod 4 = 0 /\
  ba_to_int (firstn 2 (skipn 2 t)) = N.of_nat (length t - 4) /\
  firstn (length name) (skipn 4 t) = name /\ nth (4 + length name) t 1%N = 0%N.
Proof.
  intros name Hn t. pose proof (pad4_props (length name)) as (Hm & Hlo & Hhi). set (n := length name) in *. set (pad := pad4 n) in *.
  destruct (int_to_ba_2 (N.of_nat pad)) as (a & b & Hab).
  assert (Ht : t = (5%N :: 0%N :: a :: b :: name ++ zeros (pad - n))%list) by (unfold t, iscsi_tid0; fold n; fold pad; rewrite Hab; reflexivity).
  assert (Hlen : length t = 4 + pad).
  { rewrite Ht. change (length (5%N :: 0%N :: a :: b :: name ++ zeros (pad - n))%list) with (S (S (S (S (length (name ++ zeros (pad - n))%list))))).
    rewrite app_length, zeros_length. fold n. lia. }
  split; [exact Hlen|]. split.
  { rewrite Hlen. replace (4 + pad) with (pad + 1 * 4) by lia. rewrite Nat.mod_add by lia. exact Hm. }
  split.
  { rewrite Hlen. replace (4 + pad - 4) with pad by lia. rewrite Ht. cbn [skipn firstn]. rewrite <- Hab.
    rewrite ba_to_int_to_ba. apply N.mod_small. change (256 ^ N.of_nat 2)%N with 65536%N. lia. }
  split.
  { rewrite Ht. cbn [skipn]. unfold n. rewrite firstn_app, Nat.sub_diag, firstn_all. cbn [firstn]. apply app_nil_r. }
  rewrite Ht. change (4 + n) with (S (S (S (S n)))). cbn [nth]. rewrite app_nth2 by (fold n; lia). fold n. rewrite Nat.sub_diag.
  destruct (pad - n) as [|k] eqn:E; [lia|]. reflexivity.
Qed.

(* REGISTER AND MOVE with such a TransportID, closed form: the 24-byte list with TRANSPORTID PARAMETER DATA LENGTH = 4 + pad4(len name),
   then the TransportID *)
Theorem prout_register_and_move_iscsi : forall (op : pv) (sa : Z) (data : list (string * pv)) (s : string) (name hdr : bytes) f,
  opcode_has op "REGISTER_AND_MOVE" sa ->
  lookup "transport_id" data = Some (PDict [("protocol_id", PInt 5); ("iscsi_name", PStr s)]) ->
  bytes_of_string s = Some name -> (Z.of_nat (length name) <= 65000)%Z -> 2 <= f ->
  encode_pv (dict_set data "transportid_length" (PInt (Z.of_nat (4 + pad4 (length name))))) T_ram (zeros 24) = Ok hdr ->
  call_fun all_tables py_program (S f) PROUT [op; PInt sa; PDict data] = Ok (PBytes (hdr ++ iscsi_tid0 name)%list).
Proof.
  intros op sa data s name hdr f Hop Htid Hs Hn Hf Henc.
  apply (prout_register_and_move_exact op _ sa data (iscsi_tid0 name) hdr f Hop Htid eq_refl).
  - apply iscsi_transport_id_format0; [exact Hs|exact Hf|lia].
  - destruct (iscsi_tid0_honest name Hn) as (Hl & _). rewrite Hl. exact Henc.
Qed.
