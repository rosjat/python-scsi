(* Proofs/PyRoundTrip3.v — REPORT TARGET PORT GROUPS, the builder over the REGENERATED body (two nested `for` loops): for any number of
   groups and any number of ports per group, the eight bytes encode_dict makes of each group's fields followed by 00 00 + the two-byte
   RELATIVE TARGET PORT IDENTIFIER of each of its ports, in order, and RETURN DATA LENGTH := the number of bytes that follow; and decoding
   what was built returns the groups. *)
From Coq Require Import String ZArith.
From PS Require Import Base.Bytes Base.Result Model.Converter Model.Py Proofs.PyLemmas Proofs.PyParsers Proofs.PyTotal2 Proofs.PyRoundTrip Proofs.PyRoundTrip2 Proofs.Codec Proofs.Layout Gen.Tables Gen.PyFuncs.
Open Scope string_scope.
Open Scope nat_scope.

Definition RTPGM := "scsi_cdb_report_target_port_groups.ReportTargetPortGroups.marshall_datain".
Notation PF_rtpgm := PF_scsi_cdb_report_target_port_groups_ReportTargetPortGroups_marshall_datain.
Lemma rtpgm_lookup : lookup RTPGM py_program = Some PF_rtpgm.
Proof. vm_compute. reflexivity. Qed.

(* one group: the dictionary of table fields, the RELATIVE TARGET PORT IDENTIFIERs of its ports, the 8 bytes encode_dict makes of the fields *)
Record tg_item := mkTgi { tgi_fields : list (string * value); tgi_ports : list N; tgi_enc : bytes }.
Definition tgi_port_dict (id : N) : pv := PDict [("relative_target_port_id", PInt (Z.of_N id))].
Definition tgi_dict (g : tg_item) : pv :=
  PDict (dict_of_decoded (tgi_fields g) ++ [("target_ports", PList (map tgi_port_dict (tgi_ports g)))])%list.
Definition tgi_port_bytes (id : N) : bytes := (zeros 2 ++ int_to_ba id 2)%list.
Definition tgi_bytes (g : tg_item) : bytes := (tgi_enc g ++ concat (map tgi_port_bytes (tgi_ports g)))%list.
Definition tgi_ok (g : tg_item) : Prop :=
  encode_dict (tgi_fields g) T_tpgd (zeros 8) = Ok (tgi_enc g) /\
  lookup "target_ports" (dict_of_decoded (tgi_fields g)) = None.

(* one turn of the inner loop: a port of the group *)
Lemma rtpgm_port_turn call again (id : N) pre ρ : lookup "result" ρ = Some (PBytes pre) ->
  exists ρ', exec_block all_tables call again (for_body (for_body (fn_body PF_rtpgm) 2) 3) (dict_set ρ "_tpd" (tgi_port_dict id)) = ONorm ρ' /\
             lookup "result" ρ' = Some (PBytes (pre ++ tgi_port_bytes id)%list).
Proof.
  intros Hres. cbn [for_body nth fn_body PF_rtpgm].
  step. rewrite (bytearray_zeros _ 2) by lia. rewrite Hres. cbn [bin_eval as_int].
  step. unfold tgi_port_dict at 1. cbn [index_eval lookup String.eqb Ascii.eqb Bool.eqb as_int bin_eval]. rewrite exec_block_nil.
  eexists. split; [reflexivity|]. lk.
  rewrite (int_to_ba_z_nat _ _ (N.to_nat id) 2) by lia. rewrite N2Nat.id. unfold tgi_port_bytes. now rewrite <- app_assoc.
Qed.

(* one turn of the outer loop: a group and its ports *)
Lemma rtpgm_group_turn call again (g : tg_item) pre ρ : tgi_ok g -> lookup "result" ρ = Some (PBytes pre) ->
  exists ρ', exec_block all_tables call again (for_body (fn_body PF_rtpgm) 2) (dict_set ρ "_tpgd" (tgi_dict g)) = ONorm ρ' /\
             lookup "result" ρ' = Some (PBytes (pre ++ tgi_bytes g)%list).
Proof.
  intros (Henc & Hfresh) Hres. cbn [for_body nth fn_body PF_rtpgm].
  step. rewrite (bytearray_zeros _ 8) by lia.
  step. unfold tgi_dict at 1. rewrite (proj1 rtpg_tables). unfold with_var. lk.
  rewrite encode_pv_app_unknown by reflexivity. rewrite encode_pv_of_decoded, Henc.
  step. rewrite Hres. cbn [bin_eval as_int].
  rewrite exec_block_cons, exec_for. cbn [eval]. lk. unfold tgi_dict at 1. cbn [index_eval]. rewrite (lookup_app_none _ _ _ Hfresh).
  cbn [lookup String.eqb Ascii.eqb Bool.eqb iter_items].
  match goal with |- context [for_iter _ _ _ _ ?body _ ?r0] =>
    destruct (for_appends all_tables call again "_tpd" "result" body N tgi_port_dict tgi_port_bytes (fun _ => True)
                (fun id pre ρ _ => rtpgm_port_turn call again id pre ρ)
                (tgi_ports g) (pre ++ tgi_enc g)%list r0) as (ρ' & -> & Hres') end; [apply Forall_forall; trivial|lk; reflexivity|].
  rewrite exec_block_nil. eexists. split; [reflexivity|]. rewrite Hres'. unfold tgi_bytes. now rewrite <- app_assoc.
Qed.

(* from the `for` over the groups to the end of the builder, whatever was appended to the four length bytes before *)
Lemma rtpgm_tail (all : list tg_item) (pre : bytes) (dd : list (string * pv)) f (ρ0 : env) :
  Forall tgi_ok all ->
  lookup "result" ρ0 = Some (PBytes (zeros 4 ++ pre)%list) -> lookup "data" ρ0 = Some (PDict dd) ->
  lookup "target_port_group_descriptors" dd = Some (PList (map tgi_dict all)) ->
  exec_block all_tables (call_with py_program (run all_tables py_program f)) (run all_tables py_program f) (skipn 2 (fn_body PF_rtpgm)) ρ0 =
  ORet (PBytes (int_to_ba (N.of_nat (length (pre ++ concat (map tgi_bytes all))%list)) 4 ++ pre ++ concat (map tgi_bytes all))%list).
Proof.
  intros Hall Hres0 Hdata0 Hlk. cbn [skipn fn_body PF_rtpgm].
  rewrite exec_block_cons, exec_for. cbn [eval]. rewrite Hdata0. cbn [index_eval]. rewrite Hlk. cbn [iter_items].
  match goal with |- context [for_iter _ ?c ?a _ ?body _ _] =>
    destruct (for_appends all_tables c a "_tpgd" "result" body tg_item tgi_dict tgi_bytes tgi_ok (rtpgm_group_turn c a)
                all (zeros 4 ++ pre)%list ρ0 Hall Hres0) as (ρ' & -> & Hres) end.
  rewrite <- app_assoc in Hres.
  rewrite (exec_store_len_ret _ _ _ "result" _ 4 _ ρ' eq_refl Hres) by (cbn [zeros repeat app length]; lia).
  cbn [zeros repeat app length skipn Nat.sub]. now rewrite Nat.sub_0_r.
Qed.

(* the length-only header format (no FORMAT TYPE 1 in the dictionary) *)
Theorem rtpg_build_exact : forall (all : list tg_item) (ft : list (string * pv)) f, Forall tgi_ok all -> 1 <= f ->
  ft = [] \/ ft = [("format_type", PInt 0)] ->
  call_fun all_tables py_program f RTPGM [PDict (ft ++ [("target_port_group_descriptors", PList (map tgi_dict all))])%list]
  = Ok (PBytes (int_to_ba (N.of_nat (length (concat (map tgi_bytes all)))) 4 ++ concat (map tgi_bytes all))%list).
Proof.
  intros all ft f Hall Hf Hft. destruct f as [|f]; [lia|].
  eapply call_with_ret; [exact rtpgm_lookup|reflexivity|]. cbn [fn_body PF_rtpgm].
  cstep. rewrite (bytearray_zeros _ 4) by lia.
  rewrite exec_block_cons, exec_if.
  (* `"format_type" in data and data["format_type"] == 1` is false in both cases *)
  destruct Hft as [-> | ->]; cbn [app eval lookup String.eqb Ascii.eqb Bool.eqb in_eval negb truthy index_eval cmp_eval py_eq as_int Z.eqb];
    rewrite exec_block_nil; eapply (rtpgm_tail all [] _ f _ Hall); reflexivity.
Qed.

Lemma ext_wf4 : wf_layout 4 T_ext = true.
Proof. vm_compute. reflexivity. Qed.

(* the builder with FORMAT TYPE 1: RETURN DATA LENGTH, the four bytes encode_dict makes of the two header fields, the groups *)
Theorem rtpg_build_exact_extended : forall (all : list tg_item) (itt : N) (ext : bytes) f, Forall tgi_ok all -> 1 <= f ->
  encode_dict [("format_type", VI 1); ("implicit_transition_time", VI itt)] T_ext (zeros 4) = Ok ext ->
  call_fun all_tables py_program f RTPGM
    [PDict [("format_type", PInt 1); ("implicit_transition_time", PInt (Z.of_N itt)); ("target_port_group_descriptors", PList (map tgi_dict all))]]
  = Ok (PBytes (int_to_ba (N.of_nat (length (ext ++ concat (map tgi_bytes all))%list)) 4 ++ ext ++ concat (map tgi_bytes all))%list).
Proof.
  intros all itt ext f Hall Hf Hext. destruct f as [|f]; [lia|].
  eapply call_with_ret; [exact rtpgm_lookup|reflexivity|]. cbn [fn_body PF_rtpgm].
  cstep. rewrite (bytearray_zeros _ 4) by lia.
  rewrite exec_block_cons, exec_if. cbn [eval lookup String.eqb Ascii.eqb Bool.eqb in_eval negb truthy index_eval cmp_eval py_eq as_int Z.eqb Pos.eqb].
  cstep. rewrite (bytearray_zeros _ 4) by lia.
  cstep. rewrite (proj2 rtpg_tables).
  assert (Henc : encode_pv [("format_type", PInt 1); ("implicit_transition_time", PInt (Z.of_N itt)); ("target_port_group_descriptors", PList (map tgi_dict all))] T_ext (zeros 4) = Ok ext).
  { change [("format_type", PInt 1); ("implicit_transition_time", PInt (Z.of_N itt)); ("target_port_group_descriptors", PList (map tgi_dict all))]
      with (dict_of_decoded [("format_type", VI 1); ("implicit_transition_time", VI itt)] ++ [("target_port_group_descriptors", PList (map tgi_dict all))])%list.
    rewrite encode_pv_app_unknown by reflexivity. rewrite encode_pv_of_decoded. exact Hext. }
  rewrite Henc.
  cstep. rewrite exec_block_nil.
  eapply (rtpgm_tail all ext _ f _ Hall); reflexivity.
Qed.

(* ------------------------------------------------------------------ dict -> bytes -> dict *)
(* a layout extended by further entries treats a dictionary whose keys it already knew in the same way *)
Lemma encode_dict_ext (dv : list (string * value)) (L X : layout) : (forall k, In k (map fst dv) -> In k (map fst L)) ->
  forall r, encode_dict dv (L ++ X)%list r = encode_dict dv L r.
Proof.
  induction dv as [|[k v] dv IH]; intros Hk r; [reflexivity|]. cbn [encode_dict].
  destruct (lookup_in_keys L k (Hk k (or_introl eq_refl))) as [f Hf]. rewrite (lookup_app_some _ X _ _ Hf), Hf.
  destruct (encode1 r f v); [|reflexivity]. apply IH. intros k' H. apply Hk. now right.
Qed.

Lemma valid_dict_ext n (dv : list (string * value)) (L X : layout) : (forall k, In k (map fst dv) -> In k (map fst L)) ->
  valid_dict n L dv = true -> valid_dict n (L ++ X)%list dv = true.
Proof.
  unfold valid_dict. intros Hk H. apply andb_prop in H as [Hn Hv]. rewrite Hn. cbn [andb].
  rewrite forallb_forall in *. intros [k v] Hin. specialize (Hv _ Hin). unfold val_okb in *. cbn [fst snd] in *.
  destruct (lookup_in_keys L k (Hk k (in_map fst _ _ Hin))) as [f Hf]. rewrite (lookup_app_some _ X _ _ Hf). now rewrite Hf in Hv.
Qed.

Lemma tpgd_wf8 : wf_layout 8 T_tpgd = true.
Proof. vm_compute. reflexivity. Qed.
Lemma tpgd_ext_wf8 : wf_layout 8 (T_tpgd ++ [("format_type", Mask 112 0)])%list = true.
Proof. vm_compute. reflexivity. Qed.

(* the bits of byte 0 that no field of the group descriptor covers stay zero: read as an extended header, what was built from a complete
   group dictionary has FORMAT TYPE 0 *)
Lemma tg_enc_reserved (dv : list (string * value)) (enc : bytes) :
  valid_dict 8 T_tpgd dv = true -> map fst dv = map fst T_tpgd -> encode_dict dv T_tpgd (zeros 8) = Ok enc ->
  lookup "format_type" (dict_of_decoded (decode_total enc T_ext)) = Some (PInt 0).
Proof.
  intros Hv Hk Henc.
  assert (Hkeys : forall k, In k (map fst dv) -> In k (map fst T_tpgd)) by (intros k H; now rewrite <- Hk).
  destruct (decode_encode_zeros 8 (T_tpgd ++ [("format_type", Mask 112 0)])%list dv "format_type" (Mask 112 0) tpgd_ext_wf8
              (valid_dict_ext 8 dv T_tpgd _ Hkeys Hv) ltac:(apply in_or_app; right; left; reflexivity)) as (r' & Hr' & _ & _ & _ & Hdec).
  rewrite (encode_dict_ext dv T_tpgd _ Hkeys), Henc in Hr'. injection Hr' as <-.
  assert (Hnot : ~ In "format_type" (map fst dv)).
  { rewrite Hk. vm_compute. intros H. repeat (destruct H as [H|H]; [discriminate H|]). exact H. }
  specialize (Hdec Hnot). change (decode1 (zeros 8) (Mask 112 0)) with (Ok (VI 0)) in Hdec.
  unfold decode_total, T_ext, T_scsi_cdb_report_target_port_groups__ReportTargetPortGroups___ext_hdr_bits.
  unfold decode_bits. rewrite Hdec. reflexivity.
Qed.

Definition tg_group_dict (g : list (string * value) * list N) : pv :=
  PDict (dict_of_decoded (fst g) ++ [("target_ports", PList (map tgi_port_dict (snd g)))])%list.
Definition tg_group_ok (g : list (string * value) * list N) : Prop :=
  valid_dict 8 T_tpgd (fst g) = true /\ map fst (fst g) = map fst T_tpgd /\
  In ("target_port_count", VI (N.of_nat (length (snd g)))) (fst g) /\ Forall (fun id => (id < 65536)%N) (snd g).

Definition tg_item_good (g : tg_item) : Prop :=
  tgi_ok g /\ length (tgi_enc g) = 8 /\ decode_bits (tgi_enc g) T_tpgd = Ok (tgi_fields g) /\
  lookup "target_port_count" (dict_of_decoded (tgi_fields g)) = Some (PInt (Z.of_nat (length (tgi_ports g)))) /\
  lookup "format_type" (dict_of_decoded (decode_total (tgi_enc g) T_ext)) = Some (PInt 0) /\
  Forall (fun id => (id < 65536)%N) (tgi_ports g).

Lemma tg_groups_encode (groups : list (list (string * value) * list N)) : Forall tg_group_ok groups ->
  exists gs : list tg_item, map (fun g => (tgi_fields g, tgi_ports g)) gs = groups /\ Forall tg_item_good gs.
Proof.
  intros Hall. apply (Forall_choice _ _ _ groups Hall). intros [dv ids] (Hv & Hk & Hc & Hids). cbn [fst snd] in *.
  destruct (valid_dict_parts _ _ _ Hv) as (Hnd & _).
  destruct (encode_valid 8 T_tpgd dv tpgd_wf8 Hv Hk) as (enc & He & Hl & Hd).
  exists (mkTgi dv ids enc). split; [reflexivity|]. unfold tg_item_good, tgi_ok. cbn [tgi_fields tgi_ports tgi_enc].
  pose proof (lookup_dict_of_decoded dv _ _ Hnd Hc) as Hlc. cbn [pv_of_value] in Hlc. rewrite nat_N_Z in Hlc.
  repeat split; try assumption.
  - apply lookup_not_in. rewrite dict_of_decoded_names, Hk. reflexivity.
  - exact (tg_enc_reserved dv enc Hv Hk He).
Qed.

(* what was built from such groups is a list of conformant target port group descriptors, which the decoder turns back into the groups *)
Lemma tg_items_conform (gs : list tg_item) : Forall tg_item_good gs ->
  let tpgs := map (fun g => mkTpg (tgi_enc g) (map tgi_port_bytes (tgi_ports g))) gs in
  map tgi_bytes gs = map tpg_bytes tpgs /\ Forall tpg_ok tpgs /\ map tpg_dict tpgs = map tgi_dict gs /\
  length (concat (map tpg_bytes tpgs)) =
    fold_right (fun g acc => 8 + 4 * length (snd g) + acc) 0 (map (fun g => (tgi_fields g, tgi_ports g)) gs).
Proof.
  intros Hg tpgs. unfold tpgs.
  assert (H4 : forall ids, Forall (fun p => length p = 4) (map tgi_port_bytes ids)).
  { intros ids. apply Forall_map, Forall_forall. intros id _. unfold tgi_port_bytes. now rewrite app_length, zeros_length, int_to_ba_length. }
  split; [now rewrite map_map|]. split; [|split].
  - apply Forall_map. eapply Forall_impl; [|exact Hg]. intros g (_ & Hl & Hd & Hc & _ & _).
    unfold tpg_ok, tpg_fields. cbn [g_hdr g_ports]. split; [exact Hl|]. split; [apply H4|].
    unfold decode_total. rewrite Hd, map_length. exact Hc.
  - rewrite map_map. apply map_ext_in. intros g Hin.
    rewrite Forall_forall in Hg. destruct (Hg _ Hin) as (_ & _ & Hd & _ & _ & Hids).
    unfold tpg_dict, tgi_dict, tpg_fields. cbn [g_hdr g_ports]. unfold decode_total. rewrite Hd. do 5 f_equal.
    rewrite map_map. apply map_ext_in. intros id Hid. rewrite Forall_forall in Hids. specialize (Hids _ Hid).
    unfold port_dict, tgi_port_dict, tgi_port_bytes. do 5 f_equal. cbn [zeros repeat app skipn].
    rewrite ba_to_int_to_ba. apply N.mod_small. exact Hids.
  - induction Hg as [|g gs (_ & Hl & _) _ IH]; [reflexivity|].
    cbn [map fold_right snd concat]. rewrite app_length, IH. unfold tpg_bytes. cbn [g_hdr g_ports].
    rewrite app_length, Hl, (VarListProps.concat_length 4 _ (H4 _)), map_length. reflexivity.
Qed.

(* build, then parse: every list of complete valid group dictionaries with their port lists comes back, whole and in order — any number of
   groups, any number of ports per group (TARGET PORT COUNT being what it must be), as long as the whole fits the 32-bit RETURN DATA LENGTH *)
Theorem rtpg_parse_inverts_build : forall (groups : list (list (string * value) * list N)) f,
  Forall tg_group_ok groups ->
  (Z.of_nat (fold_right (fun g acc => (8 + 4 * length (snd g) + acc)%nat) 0%nat groups) < 4294967296)%Z ->
  2 * fold_right (fun g acc => (8 + 4 * length (snd g) + acc)%nat) 0%nat groups + 4 <= f ->
  exists built,
    call_fun all_tables py_program f RTPGM [PDict [("format_type", PInt 0); ("target_port_group_descriptors", PList (map tg_group_dict groups))]] = Ok (PBytes built) /\
    call_fun all_tables py_program f RTPG [PBytes built] = Ok (PDict [("format_type", PInt 0); ("target_port_group_descriptors", PList (map tg_group_dict groups))]).
Proof.
  intros groups f Hall Hsmall Hf.
  destruct (tg_groups_encode groups Hall) as (gs & <- & Hg). destruct (tg_items_conform gs Hg) as (Hbytes & Hpd & Hdicts & Hlen).
  set (tpgs := map (fun g => mkTpg (tgi_enc g) (map tgi_port_bytes (tgi_ports g))) gs) in *. rewrite <- Hlen in Hsmall, Hf.
  assert (Hok : Forall tgi_ok gs) by (eapply Forall_impl; [|exact Hg]; intros g H; apply H).
  rewrite map_map. change (map (fun x => tg_group_dict (tgi_fields x, tgi_ports x)) gs) with (map tgi_dict gs).
  eexists. split; [exact (rtpg_build_exact gs [("format_type", PInt 0)] f Hok ltac:(lia) (or_intror eq_refl))|].
  rewrite Hbytes, <- Hdicts.
  pose proof (rtpg_exact_length_only (int_to_ba (N.of_nat (length (concat (map tpg_bytes tpgs)))) 4) tpgs [] f) as Hex.
  rewrite app_nil_r in Hex. apply Hex; [apply int_to_ba_length|exact Hpd| | |lia].
  - rewrite ba_to_int_to_ba. rewrite N.mod_small by (change (256 ^ N.of_nat 4)%N with 4294967296%N; lia). lia.
  - intros g0 gs0 Heq. unfold tpgs in Heq. destruct gs as [|g gs']; [discriminate|]. cbn [map] in Heq. injection Heq as <- _. cbn [g_hdr].
    inversion Hg as [|? ? (_ & _ & _ & _ & Hft & _) _]; subst. exact Hft.
Qed.

(* build, then parse, with the extended header: FORMAT TYPE 1 and the IMPLICIT TRANSITION TIME come back, and the groups as before *)
Theorem rtpg_parse_inverts_build_extended : forall (groups : list (list (string * value) * list N)) (itt : N) f,
  Forall tg_group_ok groups -> (itt < 256)%N ->
  (Z.of_nat (4 + fold_right (fun g acc => (8 + 4 * length (snd g) + acc)%nat) 0%nat groups) < 4294967296)%Z ->
  2 * fold_right (fun g acc => (8 + 4 * length (snd g) + acc)%nat) 0%nat groups + 4 <= f ->
  exists built,
    call_fun all_tables py_program f RTPGM
      [PDict [("format_type", PInt 1); ("implicit_transition_time", PInt (Z.of_N itt)); ("target_port_group_descriptors", PList (map tg_group_dict groups))]] = Ok (PBytes built) /\
    call_fun all_tables py_program f RTPG [PBytes built] =
      Ok (PDict [("format_type", PInt 1); ("implicit_transition_time", PInt (Z.of_N itt)); ("target_port_group_descriptors", PList (map tg_group_dict groups))]).
Proof.
  intros groups itt f Hall Hitt Hsmall Hf.
  destruct (tg_groups_encode groups Hall) as (gs & <- & Hg). destruct (tg_items_conform gs Hg) as (Hbytes & Hpd & Hdicts & Hlen).
  set (tpgs := map (fun g => mkTpg (tgi_enc g) (map tgi_port_bytes (tgi_ports g))) gs) in *. rewrite <- Hlen in Hsmall, Hf.
  assert (Hok : Forall tgi_ok gs) by (eapply Forall_impl; [|exact Hg]; intros g H; apply H).
  (* the four bytes of the extended header *)
  set (hd := [("format_type", VI 1); ("implicit_transition_time", VI itt)]).
  assert (Hvd : valid_dict 4 T_ext hd = true).
  { unfold valid_dict. apply andb_true_intro. split; [reflexivity|]. cbn [forallb hd]. unfold val_okb. cbn [fst snd].
    change (lookup "format_type" T_ext) with (Some (Mask 112 0)). change (lookup "implicit_transition_time" T_ext) with (Some (Mask 255 1)).
    vm_compute geom_of. cbn [vint g_w]. change (1 <? 2 ^ 3)%N with true. cbn [andb]. rewrite andb_true_r. apply N.ltb_lt. exact Hitt. }
  destruct (encode_valid 4 T_ext hd ext_wf4 Hvd eq_refl) as (ext & Hext & Hlext & Hdec).
  rewrite map_map. change (map (fun x => tg_group_dict (tgi_fields x, tgi_ports x)) gs) with (map tgi_dict gs).
  eexists. split; [exact (rtpg_build_exact_extended gs itt ext f Hok ltac:(lia) Hext)|].
  rewrite Hbytes, <- Hdicts.
  pose proof (rtpg_exact_extended_header (int_to_ba (N.of_nat (length (ext ++ concat (map tpg_bytes tpgs))%list)) 4) ext tpgs [] (PInt (Z.of_N itt)) f) as Hex.
  rewrite app_nil_r in Hex. apply Hex; [apply int_to_ba_length|exact Hlext|exact Hpd| | | |lia].
  - rewrite ba_to_int_to_ba, app_length, Hlext. rewrite N.mod_small by (change (256 ^ N.of_nat 4)%N with 4294967296%N; lia). lia.
  - unfold decode_total. rewrite Hdec. reflexivity.
  - unfold decode_total. rewrite Hdec. reflexivity.
Qed.
