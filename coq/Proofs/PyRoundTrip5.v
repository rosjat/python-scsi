(* Proofs/PyRoundTrip5.v — TransportIDs, builder and decoder together over the REGENERATED bodies: every fixed 24-byte kind (Fibre Channel,
   SAS, SBP, SRP, SOP) and the iSCSI name-only format decode to the dictionary they were built from.  The decoder itself is in PyParsers.v. *)
From Coq Require Import String ZArith.
From PS Require Import Base.Bytes Base.Result Model.Converter Model.Py Proofs.PyLemmas Proofs.PyParsers Proofs.PyBuilders Proofs.PyRoundTrip Proofs.PyRoundTrip2 Proofs.PyRoundTrip4 Gen.Tables Gen.PyFuncs.
Open Scope string_scope.
Open Scope nat_scope.

Notation T_tid := PyBuilders.T_tid.

(* from "the builder returns firstn a enc ++ name ++ skipn (a+n) enc" and "the decoder reports the n bytes at offset a under `key`" *)
Lemma tid_round_trip (p : N) (key : string) (a n : nat) (name enc : bytes) :
  a + n <= 24 -> 1 <= a -> length name = n -> length enc = 24 -> decode_bits enc T_tid = Ok (tid_dv p) ->
  (forall tid, length tid = 24 -> lookup "protocol_id" (tid_fields tid) = Some (PInt (Z.of_N p)) ->
     tid_decodes tid (PDict (tid_fields tid ++ [(key, PBytes (firstn n (skipn a tid)))])%list)) ->
  let built := (firstn a enc ++ name ++ skipn (a + n) enc)%list in
  length built = 24 /\ tid_decodes built (tid_dict p key name).
Proof.
  intros Han Ha Hn Hl Hdec Hd built.
  assert (Hfa : length (firstn a enc) = a) by (rewrite firstn_length, Hl; lia).
  assert (Hlen : length built = 24) by (unfold built; rewrite !app_length, Hfa, skipn_length, Hl, Hn; lia).
  split; [exact Hlen|].
  assert (Hfields : tid_fields built = dict_of_decoded (tid_dv p)).
  { unfold tid_fields, built.
    assert (Hw : fields_within a PyParsers.T_tid = true) by (apply (fields_within_mono 1); [exact Ha|vm_compute; reflexivity]).
    rewrite decode_total_prefix by (rewrite Hfa; exact Hw).
    rewrite <- (decode_total_prefix (firstn a enc) (skipn a enc)) by (rewrite Hfa; exact Hw).
    rewrite firstn_skipn. unfold decode_total. unfold PyParsers.T_tid. unfold PyBuilders.T_tid in Hdec. now rewrite Hdec. }
  specialize (Hd built Hlen). rewrite Hfields in Hd. specialize (Hd eq_refl).
  replace (firstn n (skipn a built)) with name in Hd; [exact Hd|].
  unfold built. rewrite skipn_app, Hfa. assert (Hz : skipn a (firstn a enc) = []) by (apply skipn_all2; lia). rewrite Hz, Nat.sub_diag, skipn_O.
  change (@nil N ++ name ++ skipn (a + n) enc)%list with (name ++ skipn (a + n) enc)%list.
  rewrite firstn_app, Hn, Nat.sub_diag, firstn_O, app_nil_r. symmetry. apply firstn_all2. lia.
Qed.

(* a kind of TransportID: protocol identifier p, an n-byte name under `key` at offset a — in the builder's cascade and in the decoder *)
Lemma transport_id_round_trip (p : N) (key : string) (a n : nat) :
  (p < 16)%N -> Z.of_N p <> 5%Z -> 1 <= a -> a + n <= 24 ->
  lookup key T_tid = None -> lookup key (dict_of_decoded (tid_dv p)) = None ->
  chain_branch "_protocol_id" (Z.of_N p) mti_chain =
    [SStoreSlice "result" (Some (EConst (PInt (Z.of_nat a)))) (Some (EConst (PInt (Z.of_nat (a + n)))))
       (ESlice (EIndex (EVar "data") (EConst (PStr key))) None (Some (EConst (PInt (Z.of_nat n)))))] ->
  (forall tid, length tid = 24 -> lookup "protocol_id" (tid_fields tid) = Some (PInt (Z.of_N p)) ->
     tid_decodes tid (PDict (tid_fields tid ++ [(key, PBytes (firstn n (skipn a tid)))])%list)) ->
  forall (name : bytes) f, length name = n -> 1 <= f ->
  exists built, call_fun all_tables py_program f MTI [tid_dict p key name] = Ok (PBytes built) /\ length built = 24 /\
    tid_decodes built (tid_dict p key name).
Proof.
  intros Hp Hp5 Ha Han Hk Hkd Hsel Hdecodes name f Hn Hf. destruct f as [|f]; [lia|].
  destruct (tid_enc p Hp) as (enc & Henc & Hl & Hdec).
  exists (firstn a enc ++ name ++ skipn (a + n) enc)%list. split.
  - apply (transport_id_build _ (Z.of_N p) key a n name enc f); try assumption; try reflexivity.
    + change (lookup key (dict_of_decoded (tid_dv p) ++ [(key, PBytes name)])%list = Some (PBytes name)).
      rewrite (lookup_app_none _ _ _ Hkd). cbn [lookup]. now rewrite String.eqb_refl.
    + change (encode_pv (dict_of_decoded (tid_dv p) ++ [(key, PBytes name)])%list T_tid (zeros 24) = Ok enc).
      now rewrite (encode_pv_app_unknown _ _ _ _ Hk), encode_pv_of_decoded.
  - exact (tid_round_trip p key a n name enc Han Ha Hn Hl Hdec Hdecodes).
Qed.

Theorem transport_id_fc_round_trip : forall (name : bytes) f, length name = 8 -> 1 <= f ->
  exists built, call_fun all_tables py_program f MTI [tid_dict 0 "n_port_name" name] = Ok (PBytes built) /\ length built = 24 /\
    tid_decodes built (tid_dict 0 "n_port_name" name).
Proof. exact (transport_id_round_trip 0 "n_port_name" 8 8 eq_refl ltac:(discriminate) ltac:(lia) ltac:(lia) eq_refl eq_refl eq_refl tid_decodes_fc). Qed.

Theorem transport_id_sbp_round_trip : forall (name : bytes) f, length name = 8 -> 1 <= f ->
  exists built, call_fun all_tables py_program f MTI [tid_dict 3 "eui64_name" name] = Ok (PBytes built) /\ length built = 24 /\
    tid_decodes built (tid_dict 3 "eui64_name" name).
Proof. exact (transport_id_round_trip 3 "eui64_name" 8 8 eq_refl ltac:(discriminate) ltac:(lia) ltac:(lia) eq_refl eq_refl eq_refl (fun tid => tid_decodes_kind 3 "eui64_name" 8 8 tid eq_refl eq_refl ltac:(lia))). Qed.

Theorem transport_id_srp_round_trip : forall (name : bytes) f, length name = 16 -> 1 <= f ->
  exists built, call_fun all_tables py_program f MTI [tid_dict 4 "initiator_port_identifier" name] = Ok (PBytes built) /\ length built = 24 /\
    tid_decodes built (tid_dict 4 "initiator_port_identifier" name).
Proof. exact (transport_id_round_trip 4 "initiator_port_identifier" 8 16 eq_refl ltac:(discriminate) ltac:(lia) ltac:(lia) eq_refl eq_refl eq_refl (fun tid => tid_decodes_kind 4 "initiator_port_identifier" 8 16 tid eq_refl eq_refl ltac:(lia))). Qed.

Theorem transport_id_sas_round_trip : forall (name : bytes) f, length name = 8 -> 1 <= f ->
  exists built, call_fun all_tables py_program f MTI [tid_dict 6 "sas_address" name] = Ok (PBytes built) /\ length built = 24 /\
    tid_decodes built (tid_dict 6 "sas_address" name).
Proof. exact (transport_id_round_trip 6 "sas_address" 4 8 eq_refl ltac:(discriminate) ltac:(lia) ltac:(lia) eq_refl eq_refl eq_refl tid_decodes_sas). Qed.

Theorem transport_id_sop_round_trip : forall (name : bytes) f, length name = 8 -> 1 <= f ->
  exists built, call_fun all_tables py_program f MTI [tid_dict 10 "routing_id" name] = Ok (PBytes built) /\ length built = 24 /\
    tid_decodes built (tid_dict 10 "routing_id" name).
Proof. exact (transport_id_round_trip 10 "routing_id" 4 8 eq_refl ltac:(discriminate) ltac:(lia) ltac:(lia) eq_refl eq_refl eq_refl (fun tid => tid_decodes_kind 10 "routing_id" 4 8 tid eq_refl eq_refl ltac:(lia))). Qed.

(* ---------------------------------------------------------------- iSCSI, TPID format 00b: the name comes back *)
Lemma rstrip_nul_zeros k : rstrip_nul (zeros k) = [].
Proof. induction k as [|k IH]; [reflexivity|]. change (zeros (S k)) with (0%N :: zeros k). cbn [rstrip_nul]. rewrite IH. reflexivity. Qed.

Lemma rstrip_nul_app_zeros (l : bytes) k : rstrip_nul (l ++ zeros k)%list = rstrip_nul l.
Proof.
  induction l as [|c l IH]; [change ([] ++ zeros k)%list with (zeros k); apply rstrip_nul_zeros|].
  change ((c :: l) ++ zeros k)%list with (c :: (l ++ zeros k))%list. cbn [rstrip_nul]. now rewrite IH.
Qed.

Lemma string_of_bytes_of_string (s : string) : forall b, bytes_of_string s = Some b -> string_of_bytes b = Some s.
Proof.
  induction s as [|c s IH]; intros b H; cbn [bytes_of_string] in H.
  - injection H as <-. reflexivity.
  - destruct (N.ltb (Ascii.N_of_ascii c) 128) eqn:E; [|discriminate]. destruct (bytes_of_string s) as [b'|]; [|discriminate]. injection H as <-.
    cbn [string_of_bytes]. rewrite E, (IH b' eq_refl), Ascii.ascii_N_embedding. reflexivity.
Qed.

Theorem iscsi_tid0_decodes : forall (s : string) (name rest : bytes) f,
  bytes_of_string s = Some name -> rstrip_nul name = name -> (Z.of_nat (length name) <= 65000)%Z -> 1 <= f ->
  call_with py_program (run all_tables py_program f) UTID [PBytes (iscsi_tid0 name ++ rest)%list] =
  Ok (PDict [("tpid_format", PInt 0); ("protocol_id", PInt 5); ("iscsi_name", PStr s)]).
Proof.
  intros s name rest f Hs Hstrip Hn Hf. destruct f as [|f]; [lia|].
  destruct (iscsi_tid0_honest name Hn) as (Hlen & _ & Hal & Hname & _). cbv zeta in *.
  pose proof (pad4_props (length name)) as (_ & Hlo & Hhi).
  set (t := iscsi_tid0 name) in *. set (pad := pad4 (length name)) in *.
  (* the table fields lie in the first byte, which is 05h *)
  assert (Hfields : tid_fields t = [("tpid_format", PInt 0); ("protocol_id", PInt 5)]).
  { assert (Ht0 : exists tl, t = ([5%N] ++ tl)%list) by (eexists; reflexivity). destruct Ht0 as (tl & ->).
    unfold tid_fields. now rewrite decode_total_prefix by reflexivity. }
  eapply call_with_ret; [exact utid_lookup|reflexivity|].
  rewrite utid_body, (utid_prologue _ _ t rest (PInt 5)) by (rewrite ?Hfields; reflexivity || (apply (fields_within_mono 1); [lia|reflexivity])).
  rewrite Hfields, (exec_chain all_tables _ _ "_protocol_id" 5) by reflexivity.
  set (br := chain_branch "_protocol_id" 5 utid_chain). cbv in (value of br). subst br. cbn [app].
  (* _al = the ADDITIONAL LENGTH field *)
  cstep. rewrite (py_slice_field t rest _ _ 2 2) by lia. rewrite Hal.
  rewrite exec_block_cons, exec_if. cbn [eval lookup String.eqb Ascii.eqb Bool.eqb index_eval cmp_eval py_eq as_int Z.eqb truthy].
  (* _r["iscsi_name"] = data[4 : _al + 4], decoded and stripped of the padding *)
  cstep. rewrite (py_slice_field t rest _ _ 4 pad) by lia.
  assert (Hbody : firstn pad (skipn 4 t) = (name ++ zeros (pad - length name))%list).
  { unfold t, iscsi_tid0. fold pad.
    destruct (int_to_ba_2 (N.of_nat pad)) as (a & b & ->).
    cbn [app skipn]. apply firstn_all2. rewrite app_length, zeros_length. lia. }
  rewrite Hbody. cbn [decode_str_eval]. rewrite rstrip_nul_app_zeros, Hstrip, (string_of_bytes_of_string s name Hs). rewrite !exec_block_nil.
  cstep. reflexivity.
Qed.

(* build, then parse: for every ASCII name that does not end in a NUL character the decoder reports TPID FORMAT 0, protocol 5 and that name *)
Theorem iscsi_tid0_round_trip : forall (s : string) (name : bytes) f,
  bytes_of_string s = Some name -> rstrip_nul name = name -> (Z.of_nat (length name) <= 65000)%Z -> 2 <= f ->
  exists built, call_fun all_tables py_program f MTI [PDict [("protocol_id", PInt 5); ("iscsi_name", PStr s)]] = Ok (PBytes built) /\
    forall rest, call_with py_program (run all_tables py_program f) UTID [PBytes (built ++ rest)%list] =
      Ok (PDict [("tpid_format", PInt 0); ("protocol_id", PInt 5); ("iscsi_name", PStr s)]).
Proof.
  intros s name f Hs Hstrip Hn Hf. exists (iscsi_tid0 name). split.
  - exact (iscsi_transport_id_format0 s name f Hs Hf ltac:(lia)).
  - intros rest. apply iscsi_tid0_decodes; try assumption. lia.
Qed.
