(* Proofs/PyParsersRES2.v — READ ELEMENT STATUS, continued: one pass of the outer loop (one element status page) and the decoder as a
   whole on every byte string, with the result spelled out; then the report the standard describes — conformant pages of
   conformant descriptors — on which that result is exactly the pages and descriptors sent. *)
From Coq Require Import String ZArith.
From PS Require Import Base.Bytes Base.Result Model.Converter Model.Py Proofs.PyLemmas Proofs.PyParsers Proofs.PyParsersRES Proofs.Termination Gen.Tables Gen.PyFuncs.
Open Scope string_scope.
Open Scope nat_scope.

(* ---------------------------------------------------------------- every byte string *)

(* what the decoder makes of a remainder D of the report at which a page is expected: the page's fields and flags, ELEMENT DESCRIPTOR
   LENGTH, BYTE COUNT OF DESCRIPTOR DATA AVAILABLE, the page's dictionary, the remainder behind the page *)
Definition page_fields (D : bytes) : list (string * pv) := dict_update [] (dict_of_decoded (decode_total D T_res_page)).
Definition page_flags (pf : list (string * pv)) : pflags :=
  mkPF (match lookup "pvoltag" pf with Some v => truthy v | None => false end)
       (match lookup "avoltag" pf with Some v => truthy v | None => false end)
       (match lookup "element_type" pf with Some (PInt t) => t | _ => 0%Z end).
Definition page_edl (D : bytes) : nat := N.to_nat (ba_to_int (py_slice D (Some 2%Z) (Some 4%Z))).
Definition page_bc (D : bytes) : nat := N.to_nat (ba_to_int (py_slice D (Some 5%Z) (Some 8%Z))).
Definition res_page (D : bytes) : pv :=
  PDict (dict_update (page_fields D)
           [("element_descriptors", PList (res_elems (page_flags (page_fields D)) (page_edl D) (py_slice D (Some 8%Z) (Some (8 + Z.of_nat (page_bc D))%Z))))]).
Definition res_next (D : bytes) : bytes := skipn (8 + page_bc D) D.

(* the three fields the decoder looks up are in every page dictionary: the defaults in page_flags are never taken *)
Lemma page_fields_spec D : exists vp va ty,
  lookup "pvoltag" (page_fields D) = Some vp /\ lookup "avoltag" (page_fields D) = Some va /\ lookup "element_type" (page_fields D) = Some (PInt ty).
Proof.
  unfold page_fields, decode_total, T_res_page, T_scsi_cdb_readelementstatus__ReadElementStatus___element_status_page_bits. cbn.
  do 3 eexists. repeat split; reflexivity.
Qed.

(* One pass of the outer loop, for any content of `data`: the page at the head of the remainder D is appended to `_esd`, `data` moves on
   by 8 + BYTE COUNT OF DESCRIPTOR DATA AVAILABLE.  The inner loop makes at most len(D) passes, each re-entry taking one unit of the fuel f
   under this pass. *)
Lemma res_page_step f ρ D esd : length D <= f -> lookup "data" ρ = Some (PBytes D) -> lookup "_esd" ρ = Some (PList esd) ->
  exists ρ', exec_block all_tables (call_with py_program (run all_tables py_program f)) (run all_tables py_program f) res_outer_body ρ = ONorm ρ' /\
    lookup "data" ρ' = Some (PBytes (res_next D)) /\ lookup "_esd" ρ' = Some (PList (esd ++ [res_page D])) /\
    lookup "result" ρ' = lookup "result" ρ.
Proof.
  intros Hf HD Hesd. destruct tbl_page as (Tp & Wp & _).
  destruct (page_fields_spec D) as (vp & va & ty & Hpv & Hav & Hty).
  assert (HF : page_flags (page_fields D) = mkPF (truthy vp) (truthy va) ty) by (unfold page_flags; now rewrite Hpv, Hav, Hty).
  cbn [while_body fn_body nth PF_res]. change (SWhile (EAnd _ _) _) with res_inner_loop.
  step. step. rewrite HD. cbn [slice_eval opt_int as_int]. rewrite <- N_nat_Z. fold (page_bc D).
  step. rewrite HD. cbn [slice_eval opt_int as_int]. rewrite <- N_nat_Z. fold (page_edl D).
  rewrite exec_block_cons, (exec_decode D [] Tp Wp); [|cbn [eval]; lk; now rewrite HD|lk; reflexivity].
  lk. fold (page_fields D).
  step. rewrite HD. cbn [bin_eval as_int slice_eval opt_int]. set (d0 := py_slice D _ _).
  step.
  rewrite exec_block_cons, <- run_S.
  set (ρ0 := dict_set _ "_ed" _).
  assert (Hd0 : length d0 <= f) by (apply (Nat.le_trans _ (length D)); [apply py_slice_length_le|exact Hf]).
  destruct (res_elems_loop f ρ0 (page_fields D) vp va ty (page_edl D) d0) as (ρ1 & -> & Hed1 & Fr1);
    [subst ρ0; lk; reflexivity|exact Hpv|exact Hav|exact Hty|subst ρ0; lk; reflexivity|subst ρ0; lk; reflexivity|subst ρ0; lk; reflexivity|exact Hd0|].
  rewrite <- HF in Hed1.
  step. rewrite Hed1. unfold with_var. rewrite (Fr1 "_r") by discriminate. subst ρ0. lk. cbn [update_at].
  step. unfold with_var. lk. rewrite (Fr1 "_esd") by discriminate. lk. rewrite Hesd. cbn [update_at].
  step. rewrite (Fr1 "_bc"), (Fr1 "data") by discriminate. lk. rewrite HD. cbn [bin_eval as_int slice_eval opt_int].
  change 8%Z with (Z.of_nat 8). rewrite <- Nat2Z.inj_add, py_slice_from.
  rewrite exec_block_nil. eexists. split; [reflexivity|]. split; [lk; reflexivity|]. split; [lk; reflexivity|].
  lk. rewrite (Fr1 "result") by discriminate. lk. reflexivity.
Qed.

Definition res_header (hdr : bytes) : list (string * pv) := dict_update [] (dict_of_decoded (decode_total hdr T_res_hdr)).

(* the part of the report that BYTE COUNT OF REPORT AVAILABLE announces *)
Definition res_announced (data : bytes) : bytes :=
  py_slice data (Some 8%Z) (Some (8 + Z.of_N (ba_to_int (py_slice data (Some 5%Z) (Some 8%Z))))%Z).

(* The decoder on every byte string: the header's fields and one page per remainder of the announced part.  One unit of fuel per pass of
   the outer loop, and under it enough for the inner loop of any page. *)
Lemma read_element_status_run : forall (data : bytes) f, 2 * length (res_announced data) + 1 <= f ->
  call_fun all_tables py_program f RES [PBytes data] =
  Ok (PDict (dict_update (res_header data)
               [("element_status_pages", PList (map res_page (suffixes res_next (length (res_announced data)) (res_announced data))))])).
Proof.
  intros data f Hf. destruct tbl_hdr as (Th & Wh & _). set (D0 := res_announced data) in *.
  destruct f as [|f]; [lia|]. eapply call_with_ret; [exact res_lookup|reflexivity|]. cbn [fn_body PF_res].
  change (SWhile (ELen _) _) with (SWhile (ELen (EVar "data")) res_outer_body).
  cstep. cstep.
  rewrite exec_block_cons, (exec_decode data [] Th Wh); [|reflexivity|reflexivity].
  fold (res_header data).
  cstep. cstep. fold (res_announced data). fold D0.
  rewrite exec_block_cons, <- run_S.
  (* the remainder stays within the announced part, whose length is the fuel kept for the inner loop *)
  edestruct (consume_len all_tables py_program "data" res_outer_body res_next (length D0)
               (fun seen ρ => (exists R, lookup "data" ρ = Some (PBytes R) /\ length R <= length D0) /\
                              lookup "_esd" ρ = Some (PList (map res_page seen)) /\ lookup "result" ρ = Some (PDict (res_header data))))
    with (R := D0) (seen := @nil bytes) as (ρ' & -> & _ & Hesd & Hres).
  - intros R HR. apply skipn_shrinks; [exact HR|lia].
  - intros f0 R seen ρ Hf0 Hne HD ((R' & HD' & HR) & Hesd & Hres). rewrite HD in HD'. injection HD' as <-.
    destruct (res_page_step f0 ρ R (map res_page seen)) as (ρ' & E & HD' & Hesd' & Hres'); [lia|exact HD|exact Hesd|].
    exists ρ'. split; [exact E|]. split; [exact HD'|]. split; [|split].
    + exists (res_next R). split; [exact HD'|]. unfold res_next. rewrite skipn_length. lia.
    + rewrite Hesd', map_app. reflexivity.
    + rewrite Hres'. exact Hres.
  - pose proof (suffixes_length res_next (length D0) D0). lia.
  - lk. reflexivity.
  - split; [exists D0; split; [lk; reflexivity|apply le_n]|]. split; lk; reflexivity.
  - step. rewrite Hesd. unfold with_var. rewrite Hres. cbn [update_at].
    step. reflexivity.
Qed.

(* ---------------------------------------------------------------- conformant reports *)

Record espage := mkEP { ep_hdr : bytes; ep_flags : pflags; ep_E : nat; ep_descs : list bytes }.
Definition page_r (p : espage) : list (string * pv) := dict_update [] (dict_of_decoded (decode_total (ep_hdr p) T_res_page)).
(* a conformant element status page: 8 header bytes whose flags, ELEMENT DESCRIPTOR LENGTH and BYTE COUNT OF DESCRIPTOR DATA
   AVAILABLE describe the descriptors that follow; descriptors long enough for the tags the flags announce *)
Definition page_ok (p : espage) : Prop :=
  length (ep_hdr p) = 8 /\ Forall (fun d => length d = ep_E p) (ep_descs p) /\
  lookup "pvoltag" (page_r p) = Some (PInt (b2z (pf_pv (ep_flags p)))) /\
  lookup "avoltag" (page_r p) = Some (PInt (b2z (pf_av (ep_flags p)))) /\
  lookup "element_type" (page_r p) = Some (PInt (pf_ty (ep_flags p))) /\
  12 + (if pf_pv (ep_flags p) then 36 else 0) + (if pf_av (ep_flags p) then 36 else 0) <= ep_E p /\
  Z.of_N (ba_to_int (firstn 2 (skipn 2 (ep_hdr p)))) = Z.of_nat (ep_E p) /\
  Z.of_N (ba_to_int (skipn 5 (ep_hdr p))) = Z.of_nat (length (concat (ep_descs p))).
Definition page_bytes (p : espage) : bytes := (ep_hdr p ++ concat (ep_descs p))%list.
Definition page_dict (p : espage) : pv :=
  PDict (dict_update (page_r p) [("element_descriptors", PList (map (elem_dict (ep_flags p)) (ep_descs p)))]).

(* descriptors of the announced length, each long enough for its tags: one pass per descriptor, each reading its own bytes *)
Lemma res_elems_exact F E (ds : list bytes) : 12 + (if pf_pv F then 36 else 0) + (if pf_av F then 36 else 0) <= E ->
  Forall (fun d => length d = E) ds -> res_elems F E (concat ds) = map (elem_dict F) ds.
Proof.
  intros HE Hall. unfold res_elems. destruct (Nat.eqb_spec E 0) as [E0|_]; [lia|].
  rewrite <- (map_id ds) at 1 2. apply (suffixes_concat _ _ (fun d => length d = E) (fun d : bytes => d)); [|exact Hall|apply le_n].
  intros d r Hd. split; [destruct d; [cbn in Hd; lia|discriminate]|]. split.
  - now apply skipn_app_len.
  - apply elem_dict_prefix. lia.
Qed.

(* a conformant page at the head of a buffer: its dictionary is page_dict, and the decoder goes on behind it *)
Lemma res_page_exact p (r : bytes) : page_ok p ->
  page_bytes p <> [] /\ res_next (page_bytes p ++ r)%list = r /\ res_page (page_bytes p ++ r)%list = page_dict p.
Proof.
  intros (Hh & Hdl & Hpv & Hav & Hty & HE & Hedl & Hbc). destruct tbl_page as (_ & _ & Bp).
  unfold page_bytes. rewrite <- app_assoc.
  assert (Hc : page_bc (ep_hdr p ++ concat (ep_descs p) ++ r)%list = length (concat (ep_descs p))).
  { unfold page_bc. rewrite (py_slice_tail_of_prefix (ep_hdr p) _ 5 8) by (rewrite ?Hh; lia). change (Z.to_nat 5) with 5. lia. }
  assert (He : page_edl (ep_hdr p ++ concat (ep_descs p) ++ r)%list = ep_E p).
  { unfold page_edl. rewrite (py_slice_field (ep_hdr p) _ _ _ 2 2) by (rewrite ?Hh; lia). lia. }
  assert (Hf : page_fields (ep_hdr p ++ concat (ep_descs p) ++ r)%list = page_r p).
  { unfold page_fields, page_r. rewrite decode_total_prefix by (rewrite Hh; exact Bp). reflexivity. }
  split; [destruct (ep_hdr p); [discriminate Hh|discriminate]|]. split.
  - unfold res_next. rewrite Hc, app_assoc. apply skipn_app_len. rewrite app_length. lia.
  - unfold res_page, page_dict. rewrite Hc, He, Hf, (py_slice_mid (ep_hdr p) (concat (ep_descs p)) r) by (rewrite ?Hh; lia).
    replace (page_flags (page_r p)) with (ep_flags p).
    + rewrite res_elems_exact by assumption. reflexivity.
    + unfold page_flags. rewrite Hpv, Hav, Hty. destruct (ep_flags p) as [[] [] ?]; reflexivity.
Qed.

(* READ ELEMENT STATUS: 8-byte header (BYTE COUNT OF REPORT AVAILABLE), then any number of element status pages, each with its own
   flags, descriptor length and number of descriptors, then anything: exactly those pages with exactly their descriptors, the
   volume tags where the page announces them, the fields of the page's element type *)
Theorem read_element_status_exact : forall (hdr : bytes) (pages : list espage) (trail : bytes) f,
  length hdr = 8 -> Forall page_ok pages ->
  Z.of_N (ba_to_int (skipn 5 hdr)) = Z.of_nat (length (concat (map page_bytes pages))) ->
  2 * length (concat (map page_bytes pages)) + 4 <= f ->
  call_fun all_tables py_program f RES [PBytes (hdr ++ concat (map page_bytes pages) ++ trail)%list] =
  Ok (PDict (dict_update (res_header hdr) [("element_status_pages", PList (map page_dict pages))])).
Proof.
  intros hdr pages trail f Hh Hall Hlen Hf. destruct tbl_hdr as (_ & _ & Bh).
  assert (HA : res_announced (hdr ++ concat (map page_bytes pages) ++ trail)%list = concat (map page_bytes pages)).
  { unfold res_announced. rewrite (py_slice_tail_of_prefix hdr _ 5 8) by (rewrite ?Hh; lia). change (Z.to_nat 5) with 5.
    rewrite Hlen. apply py_slice_mid; rewrite ?Hh; lia. }
  rewrite read_element_status_run by (rewrite HA; lia). rewrite HA.
  unfold res_header. rewrite decode_total_prefix by (rewrite Hh; exact Bh).
  rewrite (suffixes_concat _ _ page_ok page_bytes res_next res_page page_dict res_page_exact pages _ Hall (le_n _)).
  reflexivity.
Qed.
