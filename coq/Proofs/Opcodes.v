(* Proofs/Opcodes.v — decidable comparison of the regenerated opcode tables with the T10 tables,
   and its lifting to quantified statements. *)
From Coq Require Import String Ascii.
From PS Require Import Base.Bytes Base.Result Model.Converter Model.CorrUtil.
From PS Require Import Spec.SAM Spec.T10Opcodes Gen.Opcodes Gen.Misc Model.InitCdb.
Open Scope string_scope.
Open Scope N_scope.

(* library-invented names  XXX_OPCODE_HH : the value must be the hexadecimal suffix *)
Definition hexval (c : ascii) : option N :=
  let n := N_of_ascii c in
  if (48 <=? n) && (n <=? 57) then Some (n - 48)
  else if (65 <=? n) && (n <=? 70) then Some (n - 55)
  else None.

Definition invented_value (name : string) : option N :=
  let len := String.length name in
  if (len <? 13)%nat then None else
  if String.eqb (String.substring (len - 10) 8 name) "_OPCODE_" then
    match String.get (len - 2) name, String.get (len - 1) name with
    | Some a, Some b => match hexval a, hexval b with Some x, Some y => Some (x * 16 + y) | _, _ => None end
    | _, _ => None
    end
  else None.

Definition t10_value (name : string) : option N :=
  match invented_value name with Some v => Some v | None => lookup name t10_opcodes end.

Definition optN_eqb := option_eqb N.eqb.

Definition sa_ok (sa : string * N) : bool := optN_eqb (lookup (fst sa) t10_service_actions) (Some (snd sa)).

Definition entry_ok (e : opentry) : bool :=
  let '(name, (oname, v, sas)) := e in
  optN_eqb (t10_value name) (Some v) && forallb sa_ok sas.

Definition values_ok : bool := forallb (fun S => forallb entry_ok (snd S)) command_sets.

Definition sn_eqb (a b : string * N) : bool := String.eqb (fst a) (fst b) && (snd a =? snd b).

(* the same name has the same value and the same service-action table in every set listing it *)
Definition consistent_with (tbl : list opentry) (e : opentry) : bool :=
  let '(name, (_, v, sas)) := e in
  match lookup name tbl with
  | None => true
  | Some (_, v', sas') => (v =? v') && list_eqb sn_eqb sas sas'
  end.
Definition consistent_ok : bool :=
  forallb (fun S => forallb (fun S' => forallb (consistent_with (snd S')) (snd S)) command_sets) command_sets.

(* commands that T10 defines with service actions expose (at least) those service actions *)
Definition required_ok : bool :=
  forallb (fun S => forallb (fun e : opentry =>
     let '(name, (_, _, sas)) := e in
     match lookup name required_service_actions with
     | None => true
     | Some req => forallb (fun r : string * N => optN_eqb (lookup (fst r) sas) (Some (snd r))) req
     end) (snd S)) command_sets.

Definition status_ok : bool :=
  forallb (fun e : string * N =>
    memb_s (fst e) pseudo_status || optN_eqb (lookup (fst e) sam_status) (Some (snd e))) E_SCSI_STATUS
  && forallb (fun e : string * N => optN_eqb (lookup (fst e) E_SCSI_STATUS) (Some (snd e))) sam_status.

Definition len_eqb (a : result nat) (b : option nat) : bool :=
  match a, b with
  | Ok n, Some m => Nat.eqb n m
  | Raise OpcodeException, None => true
  | _, _ => false
  end.

Definition len_ok : bool := forallb (fun v => len_eqb (init_cdb v) (cdb_len_of_opcode v)) (below 256).

Definition no_unknown_opcodes : bool :=
  match unknown_opcode_entries, unknown_misc with [], [] => true | _, _ => false end.

Definition entries_checked : nat := fold_right (fun S acc => (length (snd S) + acc)%nat) 0%nat command_sets.

(* ---------- lifting ---------- *)

Lemma optN_eqb_eq a b : optN_eqb a b = true -> a = b.
Proof.
  destruct a, b; cbn; intros H; try discriminate; [|reflexivity].
  apply N.eqb_eq in H. now subst.
Qed.

Lemma values_sound : values_ok = true ->
  forall S tbl name oname v sas, In (S, tbl) command_sets -> In (name, (oname, v, sas)) tbl ->
    t10_value name = Some v /\ forall sa x, In (sa, x) sas -> lookup sa t10_service_actions = Some x.
Proof.
  unfold values_ok. intros H S tbl name oname v sas HS He.
  rewrite forallb_forall in H. specialize (H _ HS). cbn [snd] in H.
  rewrite forallb_forall in H. specialize (H _ He). cbn [entry_ok] in H.
  apply andb_prop in H as [H1 H2]. split; [now apply optN_eqb_eq|].
  intros sa x Hsa. rewrite forallb_forall in H2. specialize (H2 _ Hsa). now apply optN_eqb_eq in H2.
Qed.

Lemma list_eqb_sn a b : list_eqb sn_eqb a b = true -> a = b.
Proof.
  revert b; induction a as [|[k v] a IH]; intros [|[k' v'] b]; cbn; intros H; try discriminate; [reflexivity|].
  apply andb_prop in H as [H1 H2]. unfold sn_eqb in H1. cbn in H1. apply andb_prop in H1 as [A B].
  apply String.eqb_eq in A. apply N.eqb_eq in B. subst. f_equal. auto.
Qed.

Lemma consistent_sound : consistent_ok = true ->
  forall S tbl S' tbl' name oname v sas oname' v' sas',
    In (S, tbl) command_sets -> In (S', tbl') command_sets ->
    In (name, (oname, v, sas)) tbl -> lookup name tbl' = Some (oname', v', sas') ->
    v = v' /\ sas = sas'.
Proof.
  unfold consistent_ok. intros H S tbl S' tbl' name oname v sas oname' v' sas' HS HS' He Hl.
  rewrite forallb_forall in H. specialize (H _ HS).
  rewrite forallb_forall in H. specialize (H _ HS'). cbn [snd] in H.
  rewrite forallb_forall in H. specialize (H _ He). cbn [consistent_with] in H.
  rewrite Hl in H. apply andb_prop in H as [A B]. apply N.eqb_eq in A. split; [assumption|now apply list_eqb_sn].
Qed.

Lemma len_sound : len_ok = true -> forall v, v < 256 ->
  match cdb_len_of_opcode v with
  | Some n => init_cdb v = Ok n
  | None => init_cdb v = Raise OpcodeException
  end.
Proof.
  unfold len_ok. intros H v Hv. rewrite forallb_forall in H.
  specialize (H v (below_In 256 v Hv)). unfold len_eqb in H.
  destruct (init_cdb v) as [n|e]; destruct (cdb_len_of_opcode v) as [m|]; try discriminate;
    try (destruct e; discriminate).
  - apply Nat.eqb_eq in H. now subst.
  - destruct e; try discriminate; reflexivity.
Qed.

Lemma status_sound : status_ok = true ->
  (forall name v, In (name, v) E_SCSI_STATUS -> In name pseudo_status \/ lookup name sam_status = Some v) /\
  (forall name v, In (name, v) sam_status -> lookup name E_SCSI_STATUS = Some v).
Proof.
  unfold status_ok. intros H. apply andb_prop in H as [A B]. split.
  - intros name v Hin. rewrite forallb_forall in A. specialize (A _ Hin). cbn [fst snd] in A.
    apply orb_prop in A as [A|A]; [left; now apply memb_s_In|right; now apply optN_eqb_eq].
  - intros name v Hin. rewrite forallb_forall in B. specialize (B _ Hin). now apply optN_eqb_eq in B.
Qed.

(* the two checks that more than one property rests on, evaluated once *)
Lemma values_ok_true : values_ok = true.
Proof. vm_compute. reflexivity. Qed.

Lemma len_ok_true : len_ok = true.
Proof. vm_compute. reflexivity. Qed.
