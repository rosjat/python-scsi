(* Proofs/CtorSound.v — what every constructor of the recognised shape does, for ALL arguments:
   if it returns, its CDB is encode_dict of the build_cdb keyword values over the class's own table
   on a zero buffer of the SAM length of the opcode, and the keyword values are the caller's
   arguments wherever the body does not reassign them.  Proved once, over the IR; the per-class
   obligation is the decidable shape check on the REGENERATED term. *)
From Coq Require Import String.
From PS Require Import Base.Bytes Base.Result Model.Converter Model.Ctor Proofs.Dict.
Open Scope string_scope.

(* ---------- free variables ---------- *)

Fixpoint fv (e : iexpr) : list string :=
  match e with
  | EVar x => [x]
  | EMul a b | EAdd a b => fv a ++ fv b
  | ELen a => fv a
  | EIf c a b => fvc c ++ fv a ++ fv b
  | ECall _ args => args
  | _ => []
  end
with fvc (c : cond) : list string :=
  match c with
  | CEq a b => fv a ++ fv b
  | CTruthy e | CIsNone e => fv e
  | CNot c' => fvc c'
  | CAnd a b | COr a b => fvc a ++ fvc b
  | CUnknown _ => []
  end.

Definition fv_kvs (kvs : list (string * iexpr)) : list string := flat_map (fun kv => fv (snd kv)) kvs.

Definition assigned1 (s : sstmt) : list string :=
  match s with SAssign x _ | SAssignC x _ => [x] | _ => [] end.
Definition assigned (body : list gstmt) : list string := flat_map (fun gs => assigned1 (snd gs)) body.

Definition agree (xs : list string) (ρ ρ' : env) : Prop := forall x, In x xs -> lookup x ρ = lookup x ρ'.

Scheme iexpr_ind2 := Induction for iexpr Sort Prop
  with cond_ind2 := Induction for cond Sort Prop.
Combined Scheme iexpr_cond_ind from iexpr_ind2, cond_ind2.

Section Sound.
  Variable ext : string -> list cval -> result cval.
  Variable op : opcode.
  Variable K : ctor.
  Variable init_len : N -> result nat.

  Lemma get_all_agree ρ ρ' xs : agree xs ρ ρ' -> get_all ρ xs = get_all ρ' xs.
  Proof.
    induction xs as [|x xs IH]; intros H; cbn [get_all]; [reflexivity|].
    rewrite (H x (or_introl eq_refl)). f_equal. apply IH. intros y Hy. apply H. now right.
  Qed.

  Lemma agree_app_l xs ys ρ ρ' : agree (xs ++ ys) ρ ρ' -> agree xs ρ ρ'.
  Proof. intros H x Hx. apply H. apply in_or_app. now left. Qed.
  Lemma agree_app_r xs ys ρ ρ' : agree (xs ++ ys) ρ ρ' -> agree ys ρ ρ'.
  Proof. intros H x Hx. apply H. apply in_or_app. now right. Qed.

  (* unfolding equations (cbn does not refold mutual fixpoints) *)
  Lemma eval_eq ρ e : eval ext op ρ e =
    match e with
    | EVar x => get ρ x
    | EConst n => Ok (CInt n)
    | ENone => Ok CNone
    | EBytes0 => Ok (CBytes [])
    | EOpValue => Ok (CInt (op_value op))
    | ESA name => match lookup name (op_sa op) with Some v => Ok (CInt v) | None => Raise AttributeError end
    | EMul a b => match eval ext op ρ a with
                  | Raise e => Raise e
                  | Ok va => match eval ext op ρ b with
                             | Raise e => Raise e
                             | Ok vb => match va, vb with CInt x, CInt y => Ok (CInt (x * y)) | _, _ => Raise TypeError end
                             end
                  end
    | EAdd a b => match eval ext op ρ a with
                  | Raise e => Raise e
                  | Ok va => match eval ext op ρ b with
                             | Raise e => Raise e
                             | Ok vb => match va, vb with CInt x, CInt y => Ok (CInt (x + y)) | _, _ => Raise TypeError end
                             end
                  end
    | ELen a => match eval ext op ρ a with
                | Raise e => Raise e
                | Ok (CBytes b) => Ok (CInt (N.of_nat (length b)))
                | Ok (CZeros n) => Ok (CInt n)
                | Ok _ => Raise TypeError
                end
    | EIf c a b => match evalc ext op ρ c with
                   | Raise e => Raise e
                   | Ok true => eval ext op ρ a
                   | Ok false => eval ext op ρ b
                   end
    | ECall fn args => ext fn (get_all ρ args)
    | EUnknown _ => Raise (OtherExn "Unknown")
    end.
  Proof. destruct e; reflexivity. Qed.

  Lemma evalc_eq ρ c : evalc ext op ρ c =
    match c with
    | CEq a b => match eval ext op ρ a with
                 | Raise e => Raise e
                 | Ok va => match eval ext op ρ b with Raise e => Raise e | Ok vb => Ok (cval_eqb va vb) end
                 end
    | CTruthy e => match eval ext op ρ e with Raise e' => Raise e' | Ok v => Ok (truthy v) end
    | CNot c' => match evalc ext op ρ c' with Raise e => Raise e | Ok b => Ok (negb b) end
    | CAnd a b => match evalc ext op ρ a with Raise e => Raise e | Ok false => Ok false | Ok true => evalc ext op ρ b end
    | COr a b => match evalc ext op ρ a with Raise e => Raise e | Ok true => Ok true | Ok false => evalc ext op ρ b end
    | CIsNone e => match eval ext op ρ e with Raise e' => Raise e' | Ok CNone => Ok true | Ok _ => Ok false end
    | CUnknown _ => Raise (OtherExn "Unknown")
    end.
  Proof. destruct c; reflexivity. Qed.

  Lemma eval_agree_both :
    (forall e ρ ρ', agree (fv e) ρ ρ' -> eval ext op ρ e = eval ext op ρ' e) /\
    (forall c ρ ρ', agree (fvc c) ρ ρ' -> evalc ext op ρ c = evalc ext op ρ' c).
  Proof.
    apply iexpr_cond_ind; intros; cbn [fv fvc] in *;
      match goal with
      | |- eval _ _ ?r ?e = eval _ _ ?r' _ => rewrite (eval_eq r e), (eval_eq r' e)
      | |- evalc _ _ ?r ?c = evalc _ _ ?r' _ => rewrite (evalc_eq r c), (evalc_eq r' c)
      end; cbv beta iota; try reflexivity;
      (* one or two subterms: their induction hypotheses, on their parts of the list of free variables *)
      try (now rewrite (H ρ ρ' H0));
      try (now rewrite (H ρ ρ' (agree_app_l _ _ _ _ H1)), (H0 ρ ρ' (agree_app_r _ _ _ _ H1))).
    - unfold get. now rewrite (H x (or_introl eq_refl)).
    - rewrite (H ρ ρ' (agree_app_l _ _ _ _ H2)).
      pose proof (agree_app_r _ _ _ _ H2) as H3.
      now rewrite (H0 ρ ρ' (agree_app_l _ _ _ _ H3)), (H1 ρ ρ' (agree_app_r _ _ _ _ H3)).
    - now rewrite (get_all_agree ρ ρ' args H).
  Qed.

  Lemma eval_agree e ρ ρ' : agree (fv e) ρ ρ' -> eval ext op ρ e = eval ext op ρ' e.
  Proof. apply eval_agree_both. Qed.

  Lemma eval_kvs_agree kvs ρ ρ' : agree (fv_kvs kvs) ρ ρ' -> eval_kvs ext op ρ kvs = eval_kvs ext op ρ' kvs.
  Proof.
    induction kvs as [|[k e] kvs IH]; intros H; cbn [eval_kvs]; [reflexivity|].
    unfold fv_kvs in H. cbn [flat_map snd] in H.
    rewrite (eval_agree e ρ ρ' (agree_app_l _ _ _ _ H)), (IH (agree_app_r _ _ _ _ H)). reflexivity.
  Qed.

  Lemma eval_var ρ x v : eval ext op ρ (EVar x) = Ok v <-> lookup x ρ = Some v.
  Proof. rewrite eval_eq. unfold get. destruct (lookup x ρ); split; congruence. Qed.

  Lemma eval_mul_int ρ a b n : eval ext op ρ (EMul a b) = Ok (CInt n) ->
    exists x y, eval ext op ρ a = Ok (CInt x) /\ eval ext op ρ b = Ok (CInt y) /\ n = x * y.
  Proof.
    rewrite eval_eq. destruct (eval ext op ρ a) as [[x| | | |]|]; destruct (eval ext op ρ b) as [[y| | | |]|];
      try discriminate. intros [= <-]. now exists x, y.
  Qed.

  (* ---------- environment and class-state tracking through statements ---------- *)

  Definition is_init (s : sstmt) : bool := match s with SInit _ _ => true | _ => false end.

  Lemma exec_init_inv eo ei G ρ c G' st' :
    exec ext op K init_len G (ρ, c) (SInit eo ei) = (G', Ok st') ->
    exists no ni n, eval ext op ρ eo = Ok (CInt no) /\ eval ext op ρ ei = Ok (CInt ni) /\
      init_len (op_value op) = Ok n /\ st' = (ρ, mkCmd (cdb c) (CZeros no) (CZeros ni) (attrs c)).
  Proof.
    cbn [exec]. destruct (init_len (op_value op)) as [n|]; destruct (eval ext op ρ eo) as [[no|?| |?|?]|?];
      destruct (eval ext op ρ ei) as [[ni|?| |?|?]|?]; try discriminate.
    intros [= _ <-]. now exists no, ni, n.
  Qed.

  Lemma exec_build_inv kvs G ρ c G' st' :
    exec ext op K init_len G (ρ, c) (SBuild 0 kvs) = (G', Ok st') ->
    exists d v n r, eval_kvs ext op ρ kvs = Ok d /\ lookup "opcode" d = Some (CInt v) /\ init_len v = Ok n /\
      encode_cdict d (c_bits K) (zeros n) = Ok r /\ st' = (ρ, mkCmd (Some r) (dataout c) (datain c) (attrs c)).
  Proof.
    cbn [exec]. destruct (eval_kvs ext op ρ kvs) as [d|]; [|discriminate].
    destruct (lookup "opcode" d) as [[v| | | |]|] eqn:Hv; try discriminate.
    destruct (init_len v) as [n|] eqn:Hn; [|discriminate].
    destruct (encode_cdict d (c_bits K) (zeros n)) as [r|] eqn:He; [|discriminate].
    intros [= _ <-]. now exists d, v, n, r.
  Qed.

  Lemma exec_env G ρ c s G' ρ' c' x :
    exec ext op K init_len G (ρ, c) s = (G', Ok (ρ', c')) -> ~ In x (assigned1 s) -> lookup x ρ' = lookup x ρ.
  Proof.
    intros H Hx. destruct s; cbn [assigned1] in Hx.
    - discriminate.
    - cbn [exec] in H. destruct (eval ext op ρ e); inversion H; subst.
      apply lookup_set_other. intros ->. apply Hx. now left.
    - cbn [exec] in H. destruct (evalc ext op ρ c0); inversion H; subst.
      apply lookup_set_other. intros ->. apply Hx. now left.
    - now apply exec_init_inv in H as (_ & _ & _ & _ & _ & _ & [= -> _]).
    - cbn [exec] in H. destruct (eval ext op ρ e); inversion H; reflexivity.
    - cbn [exec] in H. destruct (eval ext op ρ e); inversion H; reflexivity.
    - cbn [exec] in H. destruct (eval ext op ρ e); inversion H; reflexivity.
    - destruct npos; [|cbn [exec] in H; destruct (eval_kvs ext op ρ kvs); discriminate].
      now apply exec_build_inv in H as (_ & _ & _ & _ & _ & _ & _ & _ & [= -> _]).
    - discriminate.
  Qed.

  Lemma run_env body : forall G ρ c G' ρ' c' x,
    run ext op K init_len G (ρ, c) body = (G', Ok (ρ', c')) -> ~ In x (assigned body) -> lookup x ρ' = lookup x ρ.
  Proof.
    induction body as [|[g s] body IH]; intros G ρ c G' ρ' c' x H Hx; cbn [run] in H.
    - inversion H; reflexivity.
    - unfold assigned in Hx. cbn [flat_map snd] in Hx. rewrite in_app_iff in Hx.
      cbn [fst] in H. destruct (guard_holds ρ g); [|eapply IH; eauto].
      destruct (exec ext op K init_len G (ρ, c) s) as [G1 [[ρ1 c1]|e]] eqn:E; [|inversion H].
      rewrite (IH _ _ _ _ _ _ x H), (exec_env _ _ _ _ _ _ _ x E); auto.
  Qed.

  (* no statement reads or writes the class-level state *)
  Lemma exec_fst G st s : fst (exec ext op K init_len G st s) = G.
  Proof.
    destruct st as [ρ c]. destruct s; cbn [exec];
      repeat match goal with |- fst (match ?x with _ => _ end) = _ => destruct x end; reflexivity.
  Qed.

  Lemma exec_G G st s G' st' :
    exec ext op K init_len G st s = (G', Ok st') -> is_init s = false -> G' = G.
  Proof. intros H _. pose proof (exec_fst G st s) as F. now rewrite H in F. Qed.

  Lemma run_G_any body : forall G st G' r, run ext op K init_len G st body = (G', r) -> G' = G.
  Proof.
    induction body as [|[g s] body IH]; intros G st G' r H; cbn [run] in H; [now inversion H|].
    destruct (guard_holds (fst st) g); [|eapply IH; eassumption].
    pose proof (exec_fst G st s) as F.
    destruct (exec ext op K init_len G st s) as [G1 [st1|e]]; cbn [fst] in F; subst G1.
    - eapply IH; eassumption.
    - now inversion H.
  Qed.

  Lemma exec_snd G G' st s : snd (exec ext op K init_len G st s) = snd (exec ext op K init_len G' st s).
  Proof.
    destruct st as [ρ c]. destruct s; cbn [exec];
      repeat match goal with |- context [match ?x with _ => _ end] => destruct x end; reflexivity.
  Qed.

  Lemma run_snd body : forall G G' st, snd (run ext op K init_len G st body) = snd (run ext op K init_len G' st body).
  Proof.
    induction body as [|[g s] body IH]; intros G G' st; cbn [run]; [reflexivity|].
    destruct (guard_holds (fst st) g); [|apply IH].
    rewrite (surjective_pairing (exec ext op K init_len G st s)), (surjective_pairing (exec ext op K init_len G' st s)).
    rewrite (exec_snd G G'). destruct (snd (exec ext op K init_len G' st s)); [apply IH|reflexivity].
  Qed.

  Lemma run_G body : forall G st G' st',
    run ext op K init_len G st body = (G', Ok st') -> forallb (fun gs => negb (is_init (snd gs))) body = true -> G' = G.
  Proof. intros G st G' st' H _. exact (run_G_any body G st G' _ H). Qed.

  Lemma run_app a : forall b G st,
    run ext op K init_len G st (a ++ b) =
    match run ext op K init_len G st a with
    | (G', Ok st') => run ext op K init_len G' st' b
    | (G', Raise e) => (G', Raise e)
    end.
  Proof.
    induction a as [|[g s] a IH]; intros b G st; cbn [run app]; [reflexivity|].
    destruct (guard_holds (fst st) g); [|apply IH].
    destruct (exec ext op K init_len G st s) as [G1 [st1|e]]; [apply IH|reflexivity].
  Qed.

  Lemma run_app_inv a b G st G' st' :
    run ext op K init_len G st (a ++ b) = (G', Ok st') ->
    exists st1, run ext op K init_len G st a = (G, Ok st1) /\ run ext op K init_len G st1 b = (G', Ok st').
  Proof.
    rewrite run_app. destruct (run ext op K init_len G st a) as [G1 [st1|e]] eqn:E; [|discriminate].
    apply run_G_any in E as ->. eauto.
  Qed.

  Lemma run_cons_inv s rest G st G' st' :
    run ext op K init_len G st (([], s) :: rest) = (G', Ok st') ->
    exists st1, exec ext op K init_len G st s = (G, Ok st1) /\ run ext op K init_len G st1 rest = (G', Ok st').
  Proof.
    cbn [run guard_holds forallb]. pose proof (exec_fst G st s) as F.
    destruct (exec ext op K init_len G st s) as [G1 [st1|e]]; [|discriminate]. cbn [fst] in F. subst G1. eauto.
  Qed.

  (* ---------- the recognised shape ---------- *)

  Definition no_unknown_stmt (s : sstmt) : bool := match s with SUnknown _ => false | _ => true end.
  Definition plain (gs : gstmt) : bool :=
    negb (is_init (snd gs)) && no_unknown_stmt (snd gs) && match snd gs with SBuild _ _ => false | _ => true end.

  (* body = pre ++ [([], SInit eo ei)] ++ mid ++ [([], SBuild 0 kvs)]   with pre, mid plain *)
  Record shape := mkShape { sh_pre : list gstmt; sh_eo : iexpr; sh_ei : iexpr; sh_mid : list gstmt;
                            sh_kvs : list (string * iexpr) }.

  Definition shape_body (s : shape) : list gstmt :=
    sh_pre s ++ (([], SInit (sh_eo s) (sh_ei s)) :: sh_mid s) ++ [([], SBuild 0 (sh_kvs s))].

  Definition shape_ok (s : shape) : bool :=
    forallb plain (sh_pre s) && forallb plain (sh_mid s)
    && match lookup "opcode" (sh_kvs s) with Some EOpValue => true | _ => false end.

  Lemma run_shape_inv (s : shape) G st G' st' :
    run ext op K init_len G st (shape_body s) = (G', Ok st') ->
    exists st1 st2 st3,
      run ext op K init_len G st (sh_pre s) = (G, Ok st1) /\
      exec ext op K init_len G st1 (SInit (sh_eo s) (sh_ei s)) = (G, Ok st2) /\
      run ext op K init_len G st2 (sh_mid s) = (G, Ok st3) /\
      exec ext op K init_len G st3 (SBuild 0 (sh_kvs s)) = (G, Ok st') /\ G' = G.
  Proof.
    unfold shape_body. intros H.
    apply run_app_inv in H as (st1 & E1 & H). rewrite <- app_comm_cons in H.
    apply run_cons_inv in H as (st2 & E2 & H). apply run_app_inv in H as (st3 & E3 & H).
    apply run_cons_inv in H as (st4 & E4 & H). injection H as <- <-. now exists st1, st2, st3.
  Qed.

  Lemma eval_kvs_opcode ρ kvs d : eval_kvs ext op ρ kvs = Ok d ->
    lookup "opcode" kvs = Some EOpValue -> lookup "opcode" d = Some (CInt (op_value op)).
  Proof.
    revert d; induction kvs as [|[k e] kvs IH]; intros d H Hl; [discriminate|].
    cbn [eval_kvs] in H. destruct (eval ext op ρ e) as [v|] eqn:Ev; [|discriminate].
    destruct (eval_kvs ext op ρ kvs) as [d1|] eqn:Ed; [|discriminate]. inversion H; subst d.
    cbn [lookup] in *. destruct (String.eqb "opcode" k).
    - inversion Hl; subst e. rewrite eval_eq in Ev. now inversion Ev.
    - now apply IH.
  Qed.

  Theorem ctor_shape_sound (s : shape) G ρ0 G' ρ' cm n :
    shape_ok s = true -> init_len (op_value op) = Ok n ->
    run ext op K init_len G (ρ0, cmd0) (shape_body s) = (G', Ok (ρ', cm)) ->
    exists ρb d r,
      eval_kvs ext op ρb (sh_kvs s) = Ok d /\
      (forall x, ~ In x (assigned (sh_pre s ++ sh_mid s)) -> lookup x ρb = lookup x ρ0) /\
      cdb cm = Some r /\ encode_cdict d (c_bits K) (zeros n) = Ok r /\
      G' = G.
  Proof.
    intros Hok Hn Hrun.
    destruct (run_shape_inv s G _ G' _ Hrun) as ([ρ1 c1] & st2 & [ρ3 c3] & E1 & E2 & E3 & E4 & ->).
    apply exec_init_inv in E2 as (no & ni & _ & _ & _ & _ & ->).
    apply exec_build_inv in E4 as (d & v & n' & r & Ek & Hv & Hn' & Ee & [= -> ->]).
    (* the length is that of this command's operation code *)
    unfold shape_ok in Hok. apply andb_prop in Hok as [_ Hop].
    destruct (lookup "opcode" (sh_kvs s)) as [[]|] eqn:Hop'; try discriminate.
    rewrite (eval_kvs_opcode _ _ _ Ek Hop') in Hv. injection Hv as <-. rewrite Hn in Hn'. injection Hn' as <-.
    exists ρ3, d, r. repeat split; try assumption.
    intros x Hx. unfold assigned in Hx. rewrite flat_map_app, in_app_iff in Hx.
    rewrite (run_env _ _ _ _ _ _ _ x E3), (run_env _ _ _ _ _ _ _ x E1); tauto.
  Qed.
End Sound.

(* ---------- from python values to codec values ---------- *)

Definition all_ints (d : list (string * cval)) : bool :=
  forallb (fun kv => match snd kv with CInt _ => true | _ => false end) d.

Definition ints (d : list (string * cval)) : list (string * value) :=
  map (fun kv => (fst kv, match snd kv with CInt n => VI n | _ => VI 0 end)) d.

Lemma encode_cdict_ints d L : forall r, all_ints d = true -> encode_cdict d L r = encode_dict (ints d) L r.
Proof.
  induction d as [|[k v] d IH]; intros r H; cbn [encode_cdict ints map encode_dict fst snd]; [reflexivity|].
  cbn [all_ints forallb snd] in H. apply andb_prop in H as [Hv H].
  destruct v; try discriminate.
  destruct (lookup k L) as [f|]; [|now apply IH].
  destruct (encode1 r f (VI n)); [now apply IH|reflexivity].
Qed.
