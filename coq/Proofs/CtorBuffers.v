(* Proofs/CtorBuffers.v — data buffers (C03) and refusals (C17) of every constructor of the recognised
   shape, for ALL arguments.  Generic over the IR; the per-class obligation is a decidable check on
   the regenerated term. *)
From Coq Require Import String.
From PS Require Import Base.Bytes Base.Result Model.Converter Model.Ctor Model.CorrUtil.
From PS Require Import Proofs.Dict Proofs.CtorSound Proofs.CdbSpec Spec.CdbFormats.
Open Scope string_scope.
Open Scope N_scope.

Definition DOUT := "%dataout".

(* the two shapes of the statements between SCSICommand.__init__ and build_cdb *)
(* MidNone also covers a single private-attribute store (self._evpd = evpd) *)
Inductive mid_kind := MidNone | MidSetOut (e : iexpr).

Definition mid_of (mid : list gstmt) : option mid_kind :=
  match mid with
  | [] => Some MidNone
  | [([], SSetAttr _ _)] => Some MidNone
  | [([], SAssign x e); ([], SSetOut (EVar y))] =>
      if String.eqb x DOUT && String.eqb y DOUT then Some (MidSetOut e) else None
  | _ => None
  end.

Section Buf.
  Variable ext : string -> list cval -> result cval.
  Variable op : opcode.
  Variable K : ctor.
  Variable init_len : N -> result nat.

  Theorem ctor_buffers (s : shape) (mk : mid_kind) G ρ0 G' ρ' cm :
    mid_of (sh_mid s) = Some mk ->
    run ext op K init_len G (ρ0, cmd0) (shape_body s) = (G', Ok (ρ', cm)) ->
    exists ρ1 no ni,
      (forall x, ~ In x (assigned (sh_pre s)) -> lookup x ρ1 = lookup x ρ0) /\
      eval ext op ρ1 (sh_eo s) = Ok (CInt no) /\ eval ext op ρ1 (sh_ei s) = Ok (CInt ni) /\
      datain cm = CZeros ni /\
      match mk with
      | MidNone => dataout cm = CZeros no
      | MidSetOut e => exists v, eval ext op ρ1 e = Ok v /\ dataout cm = v
      end.
  Proof.
    intros Hmid Hrun.
    destruct (run_shape_inv ext op K init_len s G _ G' _ Hrun) as ([ρ1 c1] & st2 & [ρ3 c3] & E1 & E2 & E3 & E4 & ->).
    apply exec_init_inv in E2 as (no & ni & _ & Eo & Ei & _ & ->).
    apply exec_build_inv in E4 as (_ & _ & _ & r & _ & _ & _ & _ & [= -> ->]). cbn [datain dataout].
    exists ρ1, no, ni.
    split; [intros x Hx; eapply run_env; eassumption|]. split; [exact Eo|]. split; [exact Ei|].
    (* what the statements between __init__ and build_cdb did to the buffers *)
    destruct (sh_mid s) as [|[[|] s1] mid]; try discriminate.
    - injection Hmid as <-. injection E3 as <- <-. auto.
    - apply run_cons_inv in E3 as ([ρ2 c2] & X & E3). cbn [exec] in X. destruct s1; try discriminate.
      + (* self.dataout = e, through a local *)
        cbn [mid_of] in Hmid. destruct mid as [|[[|] s2] mid]; try discriminate.
        destruct s2 as [| | | |e2| | | |]; try discriminate. destruct e2 as [y| | | | | | | | | | |]; try discriminate.
        destruct mid; [|discriminate].
        destruct (String.eqb x DOUT && String.eqb y DOUT) eqn:Hxy; [|discriminate]. injection Hmid as <-.
        apply andb_prop in Hxy as [Hx Hy]. apply String.eqb_eq in Hx, Hy. subst x y.
        destruct (eval ext op ρ1 e) as [v|] eqn:Ee; [|discriminate]. injection X as <- <-.
        apply run_cons_inv in E3 as (st & X & E3). cbn [exec] in X.
        rewrite (proj2 (eval_var ext op _ DOUT v) (lookup_set_same ρ1 DOUT v)) in X.
        injection X as <-. injection E3 as <- <-. cbn [datain dataout]. eauto.
      + (* self._private = e *)
        destruct mid; [|discriminate]. injection Hmid as <-.
        destruct (eval ext op ρ1 e); [|discriminate]. injection X as <- <-. injection E3 as <- <-. auto.
  Qed.

  (* refusal before anything is built: a guard `if c: raise e` as the first statements *)
  Theorem guard_refuses t c e rest G ρ0 :
    evalc ext op ρ0 c = Ok true ->
    run ext op K init_len G (ρ0, cmd0) (([], SAssignC t c) :: ([(t, true)], SRaise e) :: rest) = (G, Raise e).
  Proof.
    intros Hc. cbn [run guard_holds forallb fst exec]. rewrite Hc.
    cbn [run guard_holds forallb fst snd]. rewrite lookup_set_same. reflexivity.
  Qed.

  (* an operation code without a fixed CDB length: no constructor of the recognised shape returns *)
  Theorem opcode_refused (s : shape) G ρ0 e :
    init_len (op_value op) = Raise e ->
    forall G' st, run ext op K init_len G (ρ0, cmd0) (shape_body s) <> (G', Ok st).
  Proof.
    intros Hn G' st Hrun.
    destruct (run_shape_inv ext op K init_len s G _ G' _ Hrun) as ([ρ1 c1] & st2 & _ & _ & E2 & _).
    apply exec_init_inv in E2 as (_ & _ & n & _ & _ & Hn' & _). congruence.
  Qed.
End Buf.

(* ---------- decidable per-class checks against Spec.xfer_specs ---------- *)

Definition xlen_matches (ok : string -> bool) (l : xlen) (e : iexpr) : bool :=
  match l, e with
  | XZero, EConst 0 => true
  | XArg x, EVar y => String.eqb x y && ok x
  | XMul x y, EMul (EVar a) (EVar b) =>
      ((String.eqb x a && String.eqb y b) || (String.eqb x b && String.eqb y a)) && ok x && ok y
  | XMulK x k, EMul (EVar a) (EConst j) => String.eqb x a && (k =? j) && ok x
  | XMulK x k, EMul (EConst j) (EVar a) => String.eqb x a && (k =? j) && ok x
  | _, _ => false
  end.

Definition out_matches (ok : string -> bool) (kvs : list (string * iexpr)) (xo : xout) (eo : iexpr) (mk : mid_kind) : bool :=
  match xo, mk with
  | OZeros l, MidNone => xlen_matches ok l eo
  | OCaller x, MidSetOut (EVar y) => String.eqb x y && ok x
  | OCallerUnless flag x, MidSetOut (EIf (CTruthy (EVar f)) EBytes0 (EVar y)) =>
      String.eqb flag f && String.eqb x y && ok x && ok flag
  | OParamList, MidSetOut (EVar v) =>
      (* the list was marshalled into v before __init__; PARAMETER LIST LENGTH = len(v) *)
      existsb (fun kv => match snd kv with ELen (EVar w) => String.eqb v w | _ => false end) kvs
  | OParamList, MidSetOut (ECall _ _) =>
      existsb (fun kv => match snd kv with ELen (EVar w) => String.eqb w DOUT | _ => false end) kvs
  | _, _ => false
  end.

Definition xfer_matches (c : ctor) (x : xout * xin) : bool :=
  match shape_of (c_body c) with
  | None => false
  | Some sh =>
      match mid_of (sh_mid sh), snd x with
      | Some mk, IZeros li =>
          let params := map fst (c_params c) in
          let asg := assigned (sh_pre sh) in
          let ok := fun v => memb_s v params && negb (memb_s v asg) in
          shape_ok sh && xlen_matches ok li (sh_ei sh) && out_matches ok (sh_kvs sh) (fst x) (sh_eo sh) mk
      | _, _ => false
      end
  end.

(* what a buffer-length expression of the standard denotes on the caller's arguments *)
Definition xlen_denotes (ρ0 : env) (l : xlen) (n : N) : Prop :=
  match l with
  | XZero => n = 0
  | XArg x => lookup x ρ0 = Some (CInt n)
  | XMul x y => exists a b, lookup x ρ0 = Some (CInt a) /\ lookup y ρ0 = Some (CInt b) /\ n = a * b
  | XMulK x k => exists a, lookup x ρ0 = Some (CInt a) /\ n = a * k
  end.

Section XferSound.
  Variable ext : string -> list cval -> result cval.
  Variable op : opcode.
  Variable init_len : N -> result nat.

  Lemma xlen_sound ok ρ1 ρ0 l e n :
    (forall x, ok x = true -> lookup x ρ1 = lookup x ρ0) ->
    xlen_matches ok l e = true -> eval ext op ρ1 e = Ok (CInt n) -> xlen_denotes ρ0 l n.
  Proof.
    intros Hag Hm He.
    assert (Hv : forall x v, ok x = true -> eval ext op ρ1 (EVar x) = Ok v -> lookup x ρ0 = Some v).
    { intros x v Hx H. apply eval_var in H. now rewrite <- (Hag x Hx). }
    destruct l as [|x|x y|x k]; destruct e; try discriminate; cbn [xlen_matches xlen_denotes] in *.
    - destruct n0; [|discriminate]. rewrite eval_eq in He. now inversion He.
    - apply andb_prop in Hm as [Hx Hok]. apply String.eqb_eq in Hx. subst x0. now apply Hv.
    - destruct e1; try discriminate. destruct e2; try discriminate.
      apply andb_prop in Hm as [Hm Hoy]. apply andb_prop in Hm as [Hm Hox].
      apply eval_mul_int in He as (a & b & Ha & Hb & ->).
      apply orb_prop in Hm as [Hm|Hm]; apply andb_prop in Hm as [A B]; apply String.eqb_eq in A, B; subst.
      + exists a, b. auto.
      + exists b, a. repeat split; auto. lia.
    - apply eval_mul_int in He as (a & b & Ha & Hb & ->).
      destruct e1; try discriminate; destruct e2; try discriminate;
        apply andb_prop in Hm as [Hm Hox]; apply andb_prop in Hm as [A B];
        apply String.eqb_eq in A; apply N.eqb_eq in B; subst.
      + rewrite eval_eq in Hb. injection Hb as <-. exists a. auto.
      + rewrite eval_eq in Ha. injection Ha as <-. exists b. split; [auto|lia].
  Qed.

  (* C03 for every class whose regenerated constructor passes xfer_matches *)
  Theorem xfer_sound (c : ctor) (x : xout * xin) li :
    xfer_matches c x = true -> snd x = IZeros li ->
    forall G pos kw G' cm n,
      init_len (op_value op) = Ok n ->
      run_ctor ext op c init_len G pos kw = (G', Ok cm) ->
      exists ρ0 ni,
        bind_args c pos kw = Ok ρ0 /\
        (* data-in: a zero buffer exactly as long as the standard's transfer *)
        datain cm = CZeros ni /\ xlen_denotes ρ0 li ni /\
        (* data-out *)
        match fst x with
        | OZeros lo => exists no, dataout cm = CZeros no /\ xlen_denotes ρ0 lo no
        | OCaller d => lookup d ρ0 = Some (dataout cm)
        | OCallerUnless flag d =>
            exists fv, lookup flag ρ0 = Some fv /\
                       if truthy fv then dataout cm = CBytes [] else lookup d ρ0 = Some (dataout cm)
        | OParamList => True      (* see Properties/C03.v: PARAMETER LIST LENGTH = len(dataout) is part of C01 *)
        | OAta => True
        end.
  Proof.
    intros Hm Hx G pos kw G' cm n _ Hrun. unfold xfer_matches in Hm.
    destruct (shape_of (c_body c)) as [sh|] eqn:Hsh; [|discriminate].
    destruct (mid_of (sh_mid sh)) as [mk|] eqn:Hmk; [|discriminate].
    rewrite Hx in Hm. apply andb_prop in Hm as [Hm Hout]. apply andb_prop in Hm as [_ Hin].
    destruct (run_ctor_shape ext init_len op c sh G pos kw G' cm Hsh Hrun) as (ρ0 & ρr & Hb & Er).
    destruct (ctor_buffers ext op c init_len sh mk G ρ0 G' ρr cm Hmk Er)
      as (ρ1 & no & ni & Hag & Heo & Hei & Hdi & Hdo).
    set (ok := fun v => memb_s v (map fst (c_params c)) && negb (memb_s v (assigned (sh_pre sh)))) in *.
    assert (Hok : forall v, ok v = true -> lookup v ρ1 = lookup v ρ0).
    { intros v Hv. unfold ok in Hv. apply andb_prop in Hv as [_ Hv]. apply negb_true_iff in Hv.
      apply Hag. now apply memb_s_false_notin. }
    exists ρ0, ni. split; [assumption|]. split; [assumption|].
    split; [eapply xlen_sound; eassumption|].
    destruct (fst x) as [lo|d|flag d| |]; destruct mk as [|e]; cbn [out_matches] in Hout; try discriminate; try exact I.
    - exists no. split; [assumption|]. eapply xlen_sound; eassumption.
    - destruct e; try discriminate. apply andb_prop in Hout as [A B]. apply String.eqb_eq in A. subst x0.
      destruct Hdo as (v & Hv & <-). apply eval_var in Hv. now rewrite <- (Hok d B).
    - destruct e; try discriminate. destruct c0; try discriminate. destruct e; try discriminate.
      destruct e1; try discriminate. destruct e2; try discriminate.
      apply andb_prop in Hout as [Hout Of]. apply andb_prop in Hout as [Hout Od]. apply andb_prop in Hout as [A B].
      apply String.eqb_eq in A, B. subst x0 x1.
      destruct Hdo as (v & Hv & <-). rewrite eval_eq, evalc_eq in Hv.
      destruct (eval ext op ρ1 (EVar flag)) as [fv|] eqn:Ef; [|discriminate].
      apply eval_var in Ef. rewrite (Hok flag Of) in Ef. exists fv. split; [assumption|].
      destruct (truthy fv).
      + rewrite eval_eq in Hv. now injection Hv as <-.
      + apply eval_var in Hv. now rewrite <- (Hok d Od).
  Qed.
End XferSound.

(* ---------- refusals (C17) ---------- *)

(* the constructor starts with `if <cond>: raise MissingBlocksizeException` *)
Definition blocksize_guard (c : ctor) : option cond :=
  match c_body c with
  | ([], SAssignC t cnd) :: ([(t', true)], SRaise MissingBlocksize) :: _ =>
      if String.eqb t t' then Some cnd else None
  | _ => None
  end.

Definition is_bs_zero (cnd : cond) : bool :=
  match cnd with
  | CEq (EVar x) (EConst n) => String.eqb x "blocksize" && (n =? 0)
  | _ => false
  end.
Definition is_bs_zero_unless (flag : string) (cnd : cond) : bool :=
  match cnd with
  | CAnd (CNot (CTruthy (EVar f))) (CEq (EVar x) (EConst n)) => String.eqb f flag && String.eqb x "blocksize" && (n =? 0)
  | _ => false
  end.

Lemma blocksize_guard_body c cnd : blocksize_guard c = Some cnd ->
  exists t rest, c_body c = ([], SAssignC t cnd) :: ([(t, true)], SRaise MissingBlocksize) :: rest.
Proof.
  unfold blocksize_guard. intros H.
  destruct (c_body c) as [|[g1 s1] b]; [discriminate H|].
  destruct g1; [|discriminate H]. destruct s1; try discriminate H.
  destruct b as [|[g2 s2] b]; [discriminate H|].
  destruct g2 as [|[t' bb] g2]; [discriminate H|]. destruct bb; [|discriminate H].
  destruct g2; [|discriminate H]. destruct s2; try discriminate H. destruct e; try discriminate H.
  destruct (String.eqb_spec x t') as [->|]; [|discriminate H]. inversion H; subst. eauto.
Qed.

Section Refuse.
  Variable ext : string -> list cval -> result cval.
  Variable op : opcode.
  Variable init_len : N -> result nat.

  Lemma blocksize_guard_refuses c cnd :
    blocksize_guard c = Some cnd ->
    forall G pos kw ρ0, bind_args c pos kw = Ok ρ0 -> evalc ext op ρ0 cnd = Ok true ->
      run_ctor ext op c init_len G pos kw = (G, Raise MissingBlocksize).
  Proof.
    intros Hg G pos kw ρ0 Hb Hc. destruct (blocksize_guard_body c cnd Hg) as (t & rest & Hbody).
    unfold run_ctor. now rewrite Hb, Hbody, guard_refuses.
  Qed.

  (* a block transfer requested without a block size is refused before anything is constructed *)
  Theorem blocksize_refused c cnd :
    blocksize_guard c = Some cnd -> is_bs_zero cnd = true ->
    forall G pos kw ρ0, bind_args c pos kw = Ok ρ0 -> lookup "blocksize" ρ0 = Some (CInt 0) ->
      run_ctor ext op c init_len G pos kw = (G, Raise MissingBlocksize).
  Proof.
    intros Hg Hz G pos kw ρ0 Hb Hl. apply (blocksize_guard_refuses c cnd Hg G pos kw ρ0 Hb).
    destruct cnd; try discriminate. destruct a; try discriminate. destruct b; try discriminate.
    cbn [is_bs_zero] in Hz. apply andb_prop in Hz as [A B]. apply String.eqb_eq in A. apply N.eqb_eq in B. subst x n.
    now rewrite evalc_eq, (proj2 (eval_var ext op ρ0 _ _) Hl), eval_eq.
  Qed.

  Theorem blocksize_refused_unless c cnd flag :
    blocksize_guard c = Some cnd -> is_bs_zero_unless flag cnd = true ->
    forall G pos kw ρ0 fv, bind_args c pos kw = Ok ρ0 -> lookup "blocksize" ρ0 = Some (CInt 0) ->
      lookup flag ρ0 = Some fv -> truthy fv = false ->
      run_ctor ext op c init_len G pos kw = (G, Raise MissingBlocksize).
  Proof.
    intros Hg Hz G pos kw ρ0 fv Hb Hl Hf Ht. apply (blocksize_guard_refuses c cnd Hg G pos kw ρ0 Hb).
    destruct cnd; try discriminate. destruct cnd1; try discriminate. destruct cnd1; try discriminate.
    destruct e; try discriminate. destruct cnd2; try discriminate. destruct a; try discriminate. destruct b; try discriminate.
    cbn [is_bs_zero_unless] in Hz. apply andb_prop in Hz as [Hz B]. apply andb_prop in Hz as [C A].
    apply String.eqb_eq in A, C. apply N.eqb_eq in B. subst x x0 n.
    rewrite evalc_eq, (evalc_eq _ _ ρ0 (CNot _)), (evalc_eq _ _ ρ0 (CTruthy _)), (proj2 (eval_var ext op ρ0 _ _) Hf), Ht.
    cbn [negb]. now rewrite evalc_eq, (proj2 (eval_var ext op ρ0 _ _) Hl), eval_eq.
  Qed.

  (* an operation code without a fixed CDB length: no constructor returns a command *)
  Theorem opcode_never_ok c sh e :
    shape_of (c_body c) = Some sh -> init_len (op_value op) = Raise e ->
    forall G pos kw G' cm, run_ctor ext op c init_len G pos kw <> (G', Ok cm).
  Proof.
    intros Hsh Hn G pos kw G' cm Hrun.
    destruct (run_ctor_shape ext init_len op c sh G pos kw G' cm Hsh Hrun) as (ρ0 & ρ1 & _ & Er).
    exact (opcode_refused ext op c init_len sh G ρ0 e Hn G' (ρ1, cm) Er).
  Qed.
End Refuse.
