(* Proofs/AttachProps.v — attach selects the command set of the peripheral device type. *)
From Coq Require Import String.
From PS Require Import Base.Bytes Model.Converter Model.Attach.
From PS Require Import Gen.Opcodes Spec.SAM.
Open Scope string_scope.
Open Scope N_scope.

Definition set_names : list string := map fst command_sets.

Definition primary_ok (s : string) : bool :=
  match lookup s command_sets with
  | None => false
  | Some tbl => forallb (fun pc : string * N => match lookup (fst pc) tbl with
                                                | Some (_, v, _) => v =? snd pc | None => false end) primary_commands
  end.

Definition map_ok : bool :=
  forallb (fun t => forallb (fun cur =>
     let s := select t cur in
     primary_ok s && match cmdset_of_type t with Some want => String.eqb s want | None => true end)
     set_names) (below 32).

Lemma map_sound : map_ok = true -> forall t cur, t < 32 -> In cur set_names ->
  primary_ok (select t cur) = true /\
  forall want, cmdset_of_type t = Some want -> select t cur = want.
Proof.
  unfold map_ok. intros H t cur Ht Hc. rewrite forallb_forall in H. specialize (H t (below_In 32 t Ht)).
  rewrite forallb_forall in H. specialize (H cur Hc). apply andb_prop in H as [A B]. split; [assumption|].
  intros want Hw. rewrite Hw in B. now apply String.eqb_eq.
Qed.

Lemma land31_lt b : N.land b 31 < 32.
Proof. change 31 with (N.ones 5). rewrite N.land_ones. apply N.mod_lt. discriminate. Qed.
