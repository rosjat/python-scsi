(* Proofs/PyRoundTrip4.v — TransportIDs of the fixed 24-byte kinds over the REGENERATED builder (Gen/PyFuncs.v) under Model/Py.v: the builder
   writes the table fields and then stores the name the dictionary holds under the kind's key at the standard's position (Fibre Channel:
   N_PORT NAME at bytes 8..15; SAS: SAS ADDRESS at bytes 4..11; ...).  One theorem for all kinds: which key, offset and length belong to a
   protocol identifier is read off the builder's cascade by computation. *)
From Coq Require Import String ZArith.
From PS Require Import Base.Bytes Base.Result Model.Converter Model.Py Proofs.PyLemmas Proofs.PyBuilders Proofs.PyRoundTrip Proofs.Codec Proofs.Layout Gen.Tables Gen.PyFuncs.
Open Scope string_scope.
Open Scope nat_scope.

Lemma tid_wf24 : wf_layout 24 T_tid = true.
Proof. vm_compute. reflexivity. Qed.

(* the dictionary a caller hands in: the two table fields and the name under its key *)
Definition tid_dict (p : N) (key : string) (name : bytes) : pv :=
  PDict [("tpid_format", PInt 0); ("protocol_id", PInt (Z.of_N p)); (key, PBytes name)].
Definition tid_dv (p : N) : list (string * value) := [("tpid_format", VI 0); ("protocol_id", VI p)].

Lemma tid_enc (p : N) : (p < 16)%N -> exists enc, encode_dict (tid_dv p) T_tid (zeros 24) = Ok enc /\ length enc = 24 /\
  decode_bits enc T_tid = Ok (tid_dv p).
Proof.
  intros Hp. apply (encode_valid 24 T_tid (tid_dv p) tid_wf24); [|reflexivity].
  unfold valid_dict. apply andb_true_intro. split; [reflexivity|]. cbn [forallb tid_dv]. unfold val_okb. cbn [fst snd].
  change (lookup "tpid_format" T_tid) with (Some (Mask 192 0)). change (lookup "protocol_id" T_tid) with (Some (Mask 15 0)).
  vm_compute geom_of. cbn [vint g_w]. change (0 <? 2 ^ 2)%N with true. cbn [andb]. rewrite andb_true_r. apply N.ltb_lt. exact Hp.
Qed.

(* a protocol identifier p other than 5 (iSCSI) whose branch of the cascade is `result[a:a+n] = data[key][:n]`: the builder returns what
   encode_dict makes of the dictionary with the n-byte name under `key` put at offset a — for any dictionary *)
Theorem transport_id_build (dd : list (string * pv)) (p : Z) (key : string) (a n : nat) (name enc : bytes) f :
  lookup "protocol_id" dd = Some (PInt p) -> p <> 5%Z -> lookup key dd = Some (PBytes name) ->
  chain_branch "_protocol_id" p mti_chain =
    [SStoreSlice "result" (Some (EConst (PInt (Z.of_nat a)))) (Some (EConst (PInt (Z.of_nat (a + n)))))
       (ESlice (EIndex (EVar "data") (EConst (PStr key))) None (Some (EConst (PInt (Z.of_nat n)))))] ->
  encode_pv dd T_tid (zeros 24) = Ok enc -> length enc = 24 -> length name = n -> a + n <= 24 ->
  call_fun all_tables py_program (S f) MTI [PDict dd] = Ok (PBytes (firstn a enc ++ name ++ skipn (a + n) enc)%list).
Proof.
  intros Hpid Hp Hname Hsel Henc Hl Hn Han.
  eapply call_with_ret; [exact mti_lookup|reflexivity|]. rewrite mti_body. cbn [firstn fn_body PF_mti app].
  cstep. rewrite Hpid.
  rewrite exec_block_cons, exec_if. cbn [eval lookup String.eqb Ascii.eqb Bool.eqb cmp_eval py_eq as_int].
  rewrite (proj2 (Z.eqb_neq p 5) Hp). cbn [negb truthy].
  cstep. rewrite (bytearray_zeros _ 24) by lia.
  cstep. rewrite tid_table, Henc, exec_block_nil.
  rewrite (exec_chain all_tables _ _ "_protocol_id" p) by reflexivity. rewrite Hsel. cbn [app].
  cstep. rewrite Hname. cbn [slice_eval opt_int as_int]. rewrite py_slice_to, firstn_all2 by lia.
  rewrite (store_slice_mid enc name _ _ a (a + n)) by (reflexivity || lia).
  cstep. reflexivity.
Qed.
