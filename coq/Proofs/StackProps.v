(* Proofs/StackProps.v — the facade-to-target stack is transparent: for every valid request, what the
   conformant target (Spec/Target.v) executes is exactly the caller's request, on both transports.
   The facade action lists, opcode tables, constructor IR and mask tables are the REGENERATED ones; each
   command form is evaluated symbolically (all argument values at once) through the IR semantics, up to the
   dictionary its constructor hands to build_cdb.  From there on one statement serves every form: the codec puts
   each value where the standard wants it (Proofs/StackCodec.v), and the target reads it back there.  Then histories of
   requests: the medium holds what was written last, both transports agree, and READ CAPACITY (10) / (16) data decode to the
   target's geometry. *)
From Coq Require Import String.
From PS Require Import Base.Bytes Base.Result Model.Converter Model.Ctor Model.Stack Spec.Target.
From PS Require Import Proofs.Layout Proofs.CtorSound Proofs.CdbSpec Proofs.StackCodec Proofs.ParserProps Proofs.XferProps Gen.Tables Gen.Opcodes.
Open Scope string_scope.
Open Scope N_scope.

(* ---------- requests, their validity, and what they mean for the medium ---------- *)

Definition target_ok (t : target) : Prop :=
  t_bs t <> 0 /\ 1 <= t_nblk t /\ forall a, length (t_disk t a) = N.to_nat (t_bs t).

Inductive form := F10 | F12 | F16.

Record rflags := mkRF { rf_prot : N; rf_dpo : N; rf_fua : N; rf_rarc : N; rf_group : N }.
Record wflags := mkWF { wf_prot : N; wf_dpo : N; wf_fua : N; wf_group : N }.
Record sflags := mkSF { sf_prot : N; sf_anchor : N; sf_unmap : N; sf_group : N }.

Inductive req :=
| RRead (f : form) (lba tl : N) (fl : rflags)
| RWrite (f : form) (lba tl : N) (data : bytes) (fl : wflags)
| RWriteSame10 (lba nb : N) (blk : bytes) (fl : sflags)
| RWriteSame16 (lba nb : N) (blk : bytes) (fl : sflags)
| RWriteSame16Ndob (lba nb : N) (anydata : cval) (fl : sflags)      (* NDOB = 1: zero blocks *)
| RSync10 (lba n immed group : N)
| RSync16 (lba n immed group : N)
| RCapacity10
| RCapacity16 (alloclen : N)
| RInquiry (alloclen : N).

Definition ci (k : string) (v : N) : string * cval := (k, CInt v).

Definition call_of (r : req) : call :=
  match r with
  | RRead f lba tl fl =>
      (match f with F10 => "read10" | F12 => "read12" | F16 => "read16" end,
       [ci "lba" lba; ci "tl" tl],
       [ci "rdprotect" (rf_prot fl); ci "dpo" (rf_dpo fl); ci "fua" (rf_fua fl); ci "rarc" (rf_rarc fl); ci "group" (rf_group fl)])
  | RWrite f lba tl data fl =>
      (match f with F10 => "write10" | F12 => "write12" | F16 => "write16" end,
       [ci "lba" lba; ci "tl" tl; ("data", CBytes data)],
       [ci "wrprotect" (wf_prot fl); ci "dpo" (wf_dpo fl); ci "fua" (wf_fua fl); ci "group" (wf_group fl)])
  | RWriteSame10 lba nb blk fl =>
      ("writesame10", [ci "lba" lba; ci "nb" nb; ("data", CBytes blk)],
       [ci "wrprotect" (sf_prot fl); ci "anchor" (sf_anchor fl); ci "unmap" (sf_unmap fl); ci "group" (sf_group fl)])
  | RWriteSame16 lba nb blk fl =>
      ("writesame16", [ci "lba" lba; ci "nb" nb; ("data", CBytes blk)],
       [ci "wrprotect" (sf_prot fl); ci "anchor" (sf_anchor fl); ci "unmap" (sf_unmap fl); ci "ndob" 0; ci "group" (sf_group fl)])
  | RWriteSame16Ndob lba nb anydata fl =>
      ("writesame16", [ci "lba" lba; ci "nb" nb; ("data", anydata)],
       [ci "wrprotect" (sf_prot fl); ci "anchor" (sf_anchor fl); ci "unmap" (sf_unmap fl); ci "ndob" 1; ci "group" (sf_group fl)])
  | RSync10 lba n immed group => ("synchronizecache10", [ci "lba" lba; ci "numblks" n], [ci "immed" immed; ci "group" group])
  | RSync16 lba n immed group => ("synchronizecache16", [ci "lba" lba; ci "numblks" n], [ci "immed" immed; ci "group" group])
  | RCapacity10 => ("readcapacity10", [], [])
  | RCapacity16 alloclen => ("readcapacity16", [], [ci "alloclen" alloclen])
  | RInquiry alloclen => ("inquiry", [ci "evpd" 0; ci "page_code" 0; ci "alloclen" alloclen], [])
  end.

Definition lba_bits (f : form) : N := match f with F16 => 64 | _ => 32 end.
Definition tl_bits (f : form) : N := match f with F10 => 16 | _ => 32 end.

(* a request the command form can express and the medium can satisfy *)
Definition valid_req (bs nblk : N) (r : req) : Prop :=
  match r with
  | RRead f lba tl fl =>
      lba < 2 ^ lba_bits f /\ tl < 2 ^ tl_bits f /\ lba + tl <= nblk /\
      rf_prot fl < 2 ^ 3 /\ rf_dpo fl < 2 ^ 1 /\ rf_fua fl < 2 ^ 1 /\ rf_rarc fl < 2 ^ 1 /\ rf_group fl < 2 ^ 5
  | RWrite f lba tl data fl =>
      lba < 2 ^ lba_bits f /\ tl < 2 ^ tl_bits f /\ lba + tl <= nblk /\ N.of_nat (length data) = tl * bs /\
      wf_prot fl < 2 ^ 3 /\ wf_dpo fl < 2 ^ 1 /\ wf_fua fl < 2 ^ 1 /\ wf_group fl < 2 ^ 5
  | RWriteSame10 lba nb blk fl =>
      lba < 2 ^ 32 /\ nb < 2 ^ 16 /\ 1 <= nb /\ lba + nb <= nblk /\ N.of_nat (length blk) = bs /\
      sf_prot fl < 2 ^ 3 /\ sf_anchor fl < 2 ^ 1 /\ sf_unmap fl < 2 ^ 1 /\ sf_group fl < 2 ^ 5
  | RWriteSame16 lba nb blk fl =>
      lba < 2 ^ 64 /\ nb < 2 ^ 32 /\ 1 <= nb /\ lba + nb <= nblk /\ N.of_nat (length blk) = bs /\
      sf_prot fl < 2 ^ 3 /\ sf_anchor fl < 2 ^ 1 /\ sf_unmap fl < 2 ^ 1 /\ sf_group fl < 2 ^ 5
  | RWriteSame16Ndob lba nb _ fl =>
      lba < 2 ^ 64 /\ nb < 2 ^ 32 /\ 1 <= nb /\ lba + nb <= nblk /\
      sf_prot fl < 2 ^ 3 /\ sf_anchor fl < 2 ^ 1 /\ sf_unmap fl < 2 ^ 1 /\ sf_group fl < 2 ^ 5
  | RSync10 lba n immed group => lba < 2 ^ 32 /\ n < 2 ^ 16 /\ lba + n <= nblk /\ immed < 2 ^ 1 /\ group < 2 ^ 5
  | RSync16 lba n immed group => lba < 2 ^ 64 /\ n < 2 ^ 32 /\ lba + n <= nblk /\ immed < 2 ^ 1 /\ group < 2 ^ 5
  | RCapacity10 => True
  | RCapacity16 alloclen => alloclen < 2 ^ 32
  | RInquiry alloclen => alloclen < 2 ^ 16
  end.

Definition write_of (bs : N) (r : req) : option wr :=
  match r with
  | RWrite _ lba tl data _ => Some (Wr lba tl data)
  | RWriteSame10 lba nb blk _ | RWriteSame16 lba nb blk _ => Some (WrSame lba nb blk)
  | RWriteSame16Ndob lba nb _ _ => Some (WrSame lba nb (zeros (N.to_nat bs)))
  | _ => None
  end.

Definition apply_wr (bs : N) (disk : N -> bytes) (w : wr) : N -> bytes :=
  match w with
  | Wr lba n data => fun a => if covers lba n a then block_of bs data (a - lba) else disk a
  | WrSame lba n blk => fun a => if covers lba n a then blk else disk a
  end.

(* the abstract meaning of a request: no CDB, no transport — the medium before, the medium after, the data returned *)
Definition meaning (t : target) (r : req) : target * result bytes :=
  (match write_of (t_bs t) r with
   | Some w => mkT (t_bs t) (t_nblk t) (t_ident t) (apply_wr (t_bs t) (t_disk t) w)
   | None => t
   end,
   Ok (match r with
       | RRead _ lba tl _ => read_blocks (t_disk t) lba (N.to_nat tl)
       | RCapacity10 => readcap10_data t
       | RCapacity16 alloclen => fill (N.to_nat alloclen) (readcap16_data t)
       | RInquiry alloclen => fill (N.to_nat alloclen) (t_ident t)
       | _ => []
       end)).

Definition cdb_len (f : form) : nat := match f with F10 => 10 | F12 => 12 | F16 => 16 end.
(* the byte at which the transfer length starts *)
Definition tl_byte (f : form) : N := match f with F10 => 7 | F12 => 6 | F16 => 10 end.

(* ---------- what the facade hands to the transport, by evaluation of the regenerated tables ---------- *)

(* the command object whose CDB build_cdb encodes from the dictionary d (SCSICommand.marshall_cdb, Model/Ctor.v: SBuild) *)
Definition cmd_of (n : nat) (L : layout) (d : list (string * cval)) (dout din : cval) (ats : list (string * cval)) : result cmd :=
  match encode_cdict d L (zeros n) with
  | Ok b => Ok (mkCmd (Some b) dout din ats)
  | Raise e => Raise e
  end.

(* Everything in a facade call is a fixed program except the argument values, so the call evaluates; the encoder
   is kept folded.  Where the constructor tests the block size against 0, the block size is first made a positive
   numeral, so that the test evaluates too. *)
Ltac facade_eval := lazy -[encode_cdict]; reflexivity.

Lemma facade_read bs f lba tl fl : bs <> 0 ->
  (let '(name, args, kw) := call_of (RRead f lba tl fl) in facade_cmd E_sbc bs name args kw) =
  cmd_of (cdb_len f)
    (match f with
     | F10 => T_scsi_cdb_read10__Read10___cdb_bits
     | F12 => T_scsi_cdb_read12__Read12___cdb_bits
     | F16 => T_scsi_cdb_read16__Read16___cdb_bits
     end)
    [ci "opcode" (match f with F10 => 0x28 | F12 => 0xA8 | F16 => 0x88 end); ci "lba" lba; ci "tl" tl;
     ci "rdprotect" (rf_prot fl); ci "dpo" (rf_dpo fl); ci "fua" (rf_fua fl); ci "rarc" (rf_rarc fl); ci "group" (rf_group fl)]
    (CZeros 0) (CZeros (bs * tl)) [].
Proof. intros Hbs. destruct bs; [contradiction|]. destruct f; facade_eval. Qed.

Lemma facade_write bs f lba tl data fl : bs <> 0 ->
  (let '(name, args, kw) := call_of (RWrite f lba tl data fl) in facade_cmd E_sbc bs name args kw) =
  cmd_of (cdb_len f)
    (match f with
     | F10 => T_scsi_cdb_write10__Write10___cdb_bits
     | F12 => T_scsi_cdb_write12__Write12___cdb_bits
     | F16 => T_scsi_cdb_write16__Write16___cdb_bits
     end)
    [ci "opcode" (match f with F10 => 0x2A | F12 => 0xAA | F16 => 0x8A end); ci "lba" lba; ci "tl" tl;
     ci "wrprotect" (wf_prot fl); ci "dpo" (wf_dpo fl); ci "fua" (wf_fua fl); ci "group" (wf_group fl)]
    (CBytes data) (CZeros 0) [].
Proof. intros Hbs. destruct bs; [contradiction|]. destruct f; facade_eval. Qed.

Lemma facade_write_same10 bs lba nb blk fl : bs <> 0 ->
  (let '(name, args, kw) := call_of (RWriteSame10 lba nb blk fl) in facade_cmd E_sbc bs name args kw) =
  cmd_of 10 T_scsi_cdb_writesame10__WriteSame10___cdb_bits
    [ci "opcode" 0x41; ci "lba" lba; ci "nb" nb;
     ci "wrprotect" (sf_prot fl); ci "anchor" (sf_anchor fl); ci "unmap" (sf_unmap fl); ci "group" (sf_group fl)]
    (CBytes blk) (CZeros 0) [].
Proof. intros Hbs. destruct bs; [contradiction|]. facade_eval. Qed.

Lemma facade_write_same16 bs lba nb blk fl : bs <> 0 ->
  (let '(name, args, kw) := call_of (RWriteSame16 lba nb blk fl) in facade_cmd E_sbc bs name args kw) =
  cmd_of 16 T_scsi_cdb_writesame16__WriteSame16___cdb_bits
    [ci "opcode" 0x93; ci "lba" lba; ci "nb" nb;
     ci "wrprotect" (sf_prot fl); ci "anchor" (sf_anchor fl); ci "unmap" (sf_unmap fl); ci "ndob" 0; ci "group" (sf_group fl)]
    (CBytes blk) (CZeros 0) [].
Proof. intros Hbs. destruct bs; [contradiction|]. facade_eval. Qed.

(* NDOB = 1: no data-out buffer whatever `data` is, and the block size is not needed *)
Lemma facade_write_same16_ndob bs lba nb anydata fl :
  (let '(name, args, kw) := call_of (RWriteSame16Ndob lba nb anydata fl) in facade_cmd E_sbc bs name args kw) =
  cmd_of 16 T_scsi_cdb_writesame16__WriteSame16___cdb_bits
    [ci "opcode" 0x93; ci "lba" lba; ci "nb" nb;
     ci "wrprotect" (sf_prot fl); ci "anchor" (sf_anchor fl); ci "unmap" (sf_unmap fl); ci "ndob" 1; ci "group" (sf_group fl)]
    (CBytes []) (CZeros 0) [].
Proof. facade_eval. Qed.

Lemma facade_sync10 bs lba n immed group :
  (let '(name, args, kw) := call_of (RSync10 lba n immed group) in facade_cmd E_sbc bs name args kw) =
  cmd_of 10 T_scsi_cdb_synchronize_cache10__SynchronizeCache10___cdb_bits
    [ci "opcode" 0x35; ci "lba" lba; ci "numblks" n; ci "immed" immed; ci "group" group] (CZeros 0) (CZeros 0) [].
Proof. facade_eval. Qed.

Lemma facade_sync16 bs lba n immed group :
  (let '(name, args, kw) := call_of (RSync16 lba n immed group) in facade_cmd E_sbc bs name args kw) =
  cmd_of 16 T_scsi_cdb_synchronize_cache16__SynchronizeCache16___cdb_bits
    [ci "opcode" 0x91; ci "lba" lba; ci "numblks" n; ci "immed" immed; ci "group" group] (CZeros 0) (CZeros 0) [].
Proof. facade_eval. Qed.

Lemma facade_capacity10 bs :
  (let '(name, args, kw) := call_of RCapacity10 in facade_cmd E_sbc bs name args kw) =
  cmd_of 10 T_scsi_cdb_readcapacity10__ReadCapacity10___cdb_bits [ci "opcode" 0x25] (CZeros 0) (CZeros 8) [].
Proof. facade_eval. Qed.

Lemma facade_capacity16 bs alloclen :
  (let '(name, args, kw) := call_of (RCapacity16 alloclen) in facade_cmd E_sbc bs name args kw) =
  cmd_of 16 T_scsi_cdb_readcapacity16__ReadCapacity16___cdb_bits
    [ci "opcode" 0x9E; ci "service_action" 0x10; ci "alloc_len" alloclen] (CZeros 0) (CZeros alloclen) [].
Proof. facade_eval. Qed.

Lemma facade_inquiry bs alloclen :
  (let '(name, args, kw) := call_of (RInquiry alloclen) in facade_cmd E_sbc bs name args kw) =
  cmd_of 6 T_scsi_cdb_inquiry__Inquiry___cdb_bits
    [ci "opcode" 0x12; ci "evpd" 0; ci "page_code" 0; ci "alloc_len" alloclen] (CZeros 0) (CZeros alloclen) [ci "_evpd" 0].
Proof. facade_eval. Qed.

(* ---------- from the command object to the target: any command built from a dictionary of integers ---------- *)

Lemma wire_read tr n ats b : wire tr (mkCmd (Some b) (CZeros 0) (CZeros n) ats) = Some (b, [], N.to_nat n).
Proof.
  unfold wire. cbn [cdb dataout datain cval_bytes]. change (zeros (N.to_nat 0)) with (@nil N). rewrite zeros_length.
  destruct tr; [now rewrite sgio_args_checked|].
  rewrite iscsi_xfer_spec. cbn [length]. change (N.of_nat 0 =? 0) with true. cbn [negb]. rewrite N2Nat.id.
  destruct (N.eqb_spec n 0) as [->|Hn]; cbn [negb]; [reflexivity|].
  change (String.eqb "SCSI_XFER_READ" "SCSI_XFER_WRITE") with false. change (String.eqb "SCSI_XFER_READ" "SCSI_XFER_READ") with true.
  cbv iota. now rewrite Nat.min_id.
Qed.

Lemma wire_write tr data b : wire tr (mkCmd (Some b) (CBytes data) (CZeros 0) []) = Some (b, data, 0%nat).
Proof.
  unfold wire. cbn [cdb dataout datain cval_bytes]. change (zeros (N.to_nat 0)) with (@nil N).
  destruct tr; [now rewrite sgio_args_checked|].
  rewrite iscsi_xfer_spec. cbn [length]. change (N.of_nat 0 =? 0) with true. cbn [negb].
  destruct data as [|x data]; [reflexivity|].
  assert (H : (N.of_nat (length (x :: data)) =? 0) = false) by (apply N.eqb_neq; cbn [length]; lia).
  rewrite H. cbn [negb]. change (String.eqb "SCSI_XFER_WRITE" "SCSI_XFER_WRITE") with true. cbv iota.
  now rewrite Nat2N.id, firstn_all.
Qed.

(* The constructor hands build_cdb the operation code and the integers d, for the table L of an n-byte CDB; the
   listed keys lie where the standard puts them (ps), and every value fits its field.  Then the target is
   dispatched on that operation code and length, and reads each listed value back at its standard position. *)
Lemma stack_call_plain tr t name args kw n L opc d dout din ats ps o space :
  facade_cmd E_sbc (t_bs t) name args kw = cmd_of n L (ci "opcode" opc :: d) dout din ats ->
  (forall b, wire tr (mkCmd (Some b) dout din ats) = Some (b, o, space)) ->
  all_ints d && nodupb ("opcode" :: map fst d) && wf_layout n L && fields_at n L (("opcode", 0, 7, 8) :: ps) = true ->
  ranges_ok n L (ints (ci "opcode" opc :: d)) ->
  exists b, (forall k i m w x, In (k, i, m, w) ps -> In (k, CInt x) d -> rd b i m w = x) /\
    stack_call tr (t_bs t) t name args kw =
      match t_dispatch t opc n b o with
      | (t', TGood r) => (t', Ok (fill space r))
      | (t', TCheck) => (t', Raise CheckCondition)
      end.
Proof.
  intros F W Hb Hr.
  apply andb_prop in Hb as [Hb Hps]. apply andb_prop in Hb as [Hb Hwf]. apply andb_prop in Hb as [Hi Hnd].
  destruct (encode_rd n L (ints (ci "opcode" opc :: d)) _ Hwf Hps) as (b & E & Lb & _ & Hrd).
  { apply valid_dict_ranges; [now rewrite ints_keys|exact Hr]. }
  exists b. split.
  - intros k i m w x Hp Hd. destruct (ints_In d k _ Hi Hd) as (x' & [= <-] & Hx). apply (Hrd k i m w x); now right.
  - unfold stack_call, t_exec. rewrite F. unfold cmd_of. rewrite encode_cdict_ints, E, W, Lb by exact Hi.
    now rewrite (Hrd "opcode" 0 7 8 opc) by now left.
Qed.
Arguments stack_call_plain tr t {name args kw n L opc d dout din ats} ps {o space}.

(* ---------- what the target does with a well-formed command ---------- *)

Lemma t_read_ok t lba tl : lba + tl <= t_nblk t ->
  t_read t lba tl = (t, TGood (read_blocks (t_disk t) lba (N.to_nat tl))).
Proof. intros H. unfold t_read. apply N.leb_le in H. now rewrite H. Qed.

Lemma t_write_ok t lba tl data : lba + tl <= t_nblk t -> N.of_nat (length data) = tl * t_bs t ->
  t_write t lba tl data = (mkT (t_bs t) (t_nblk t) (t_ident t) (apply_wr (t_bs t) (t_disk t) (Wr lba tl data)), TGood []).
Proof. intros H D. unfold t_write. apply N.leb_le in H. apply N.eqb_eq in D. now rewrite H, D. Qed.

Lemma t_write_same_ok t lba nb blk : 1 <= nb -> lba + nb <= t_nblk t -> N.of_nat (length blk) = t_bs t ->
  t_write_same t lba nb blk = (mkT (t_bs t) (t_nblk t) (t_ident t) (apply_wr (t_bs t) (t_disk t) (WrSame lba nb blk)), TGood []).
Proof.
  intros Z H D. unfold t_write_same. apply N.leb_le in Z, H. apply N.eqb_eq in D. now rewrite Z, H, D.
Qed.

Lemma t_sync_ok t lba n : lba + n <= t_nblk t -> t_sync t lba n = (t, TGood []).
Proof. intros H. unfold t_sync. apply N.leb_le in H. now rewrite H. Qed.

(* the branch t_dispatch takes on each operation code it knows, once a medium is present *)
Section Dispatch.
  Variables (t : target) (cdb o : bytes).
  Hypothesis Hn : 1 <= t_nblk t.

  Lemma medium_present : (1 <=? t_nblk t) = true.
  Proof. now apply N.leb_le. Qed.

  Lemma dispatch_read f :
    t_dispatch t (match f with F10 => 0x28 | F12 => 0xA8 | F16 => 0x88 end) (cdb_len f) cdb o =
    t_read t (rd cdb 2 7 (lba_bits f)) (rd cdb (tl_byte f) 7 (tl_bits f)).
  Proof. unfold t_dispatch. rewrite medium_present. now destruct f. Qed.

  Lemma dispatch_write f :
    t_dispatch t (match f with F10 => 0x2A | F12 => 0xAA | F16 => 0x8A end) (cdb_len f) cdb o =
    t_write t (rd cdb 2 7 (lba_bits f)) (rd cdb (tl_byte f) 7 (tl_bits f)) o.
  Proof. unfold t_dispatch. rewrite medium_present. now destruct f. Qed.
End Dispatch.

Lemma read_blocks_length disk bs lba n :
  (forall a, length (disk a) = bs) -> length (read_blocks disk lba n) = (n * bs)%nat.
Proof.
  intros H. revert lba. induction n as [|n IH]; intros lba; [reflexivity|].
  cbn [read_blocks]. rewrite app_length, H, IH. reflexivity.
Qed.

Lemma readcap10_length t : length (readcap10_data t) = 8%nat.
Proof. unfold readcap10_data. now rewrite app_length, !int_to_ba_length. Qed.

Lemma fill_exact space resp : length resp = space -> fill space resp = resp.
Proof.
  intros H. unfold fill. rewrite <- H, firstn_all, Nat.sub_diag. cbn [zeros repeat]. apply app_nil_r.
Qed.

Lemma fill_nil : fill 0 [] = [].
Proof. reflexivity. Qed.

Lemma fill_truncate alloc d : fill (N.to_nat alloc) (truncate alloc d) = fill (N.to_nat alloc) d.
Proof.
  unfold fill, truncate. rewrite firstn_firstn, Nat.min_id, firstn_length. f_equal. f_equal. lia.
Qed.

(* ---------- one call, end to end ---------- *)

(* the value ranges stack_call_plain asks for are hypotheses of valid_req, once the widths are read off the table *)
Ltac ranges := lazy -[N.lt N.pow]; repeat split; assumption || reflexivity.

(* the stack is transparent: one call *)
Theorem stack_call_meaning tr t r :
  target_ok t -> valid_req (t_bs t) (t_nblk t) r ->
  (let '(name, args, kw) := call_of r in stack_call tr (t_bs t) t name args kw) = meaning t r.
Proof.
  intros (Hbs & Hn & Hlen) Hv.
  destruct r as [f lba tl fl|f lba tl data fl|lba nb blk fl|lba nb blk fl|lba nb anyd fl|lba n im g|lba n im g| |al|al];
    cbn [call_of valid_req] in *.
  - destruct Hv as (Hlba & Htl & Hrange & ? & ? & ? & ? & ?).
    destruct (stack_call_plain tr t [("lba", 2, 7, lba_bits f); ("tl", tl_byte f, 7, tl_bits f)]
                (facade_read _ f lba tl fl Hbs) (wire_read tr _ _)) as (b & Hrd & ->); [now destruct f|destruct f; ranges|].
    rewrite dispatch_read by exact Hn.
    rewrite (Hrd "lba" 2 7 _ lba), (Hrd "tl" _ 7 _ tl) by (cbn; auto 10).
    rewrite t_read_ok by exact Hrange. rewrite fill_exact; [reflexivity|].
    rewrite (read_blocks_length _ _ _ _ Hlen). lia.
  - destruct Hv as (Hlba & Htl & Hrange & Hdata & ? & ? & ? & ?).
    destruct (stack_call_plain tr t [("lba", 2, 7, lba_bits f); ("tl", tl_byte f, 7, tl_bits f)]
                (facade_write _ f lba tl data fl Hbs) (wire_write tr _)) as (b & Hrd & ->); [now destruct f|destruct f; ranges|].
    rewrite dispatch_write by exact Hn.
    rewrite (Hrd "lba" 2 7 _ lba), (Hrd "tl" _ 7 _ tl) by (cbn; auto 10).
    now rewrite t_write_ok.
  - destruct Hv as (Hlba & Hnb & Hnz & Hrange & Hdata & ? & ? & ? & ?).
    destruct (stack_call_plain tr t [("lba", 2, 7, 32); ("nb", 7, 7, 16)]
                (facade_write_same10 _ lba nb blk fl Hbs) (wire_write tr _)) as (b & Hrd & ->); [reflexivity|ranges|].
    unfold t_dispatch. rewrite (medium_present _ Hn). cbv [is N.eqb Pos.eqb Nat.eqb andb].
    rewrite (Hrd "lba" 2 7 32 lba), (Hrd "nb" 7 7 16 nb) by (cbn; auto 10).
    now rewrite t_write_same_ok.
  - destruct Hv as (Hlba & Hnb & Hnz & Hrange & Hdata & ? & ? & ? & ?).
    destruct (stack_call_plain tr t [("lba", 2, 7, 64); ("nb", 10, 7, 32); ("ndob", 1, 0, 1)]
                (facade_write_same16 _ lba nb blk fl Hbs) (wire_write tr _)) as (b & Hrd & ->); [reflexivity|ranges|].
    unfold t_dispatch. rewrite (medium_present _ Hn). cbv [is N.eqb Pos.eqb Nat.eqb andb].
    rewrite (Hrd "lba" 2 7 64 lba), (Hrd "nb" 10 7 32 nb), (Hrd "ndob" 1 0 1 0) by (cbn; auto 10).
    cbv [N.eqb]. now rewrite t_write_same_ok.
  - destruct Hv as (Hlba & Hnb & Hnz & Hrange & ? & ? & ? & ?).
    destruct (stack_call_plain tr t [("lba", 2, 7, 64); ("nb", 10, 7, 32); ("ndob", 1, 0, 1)]
                (facade_write_same16_ndob _ lba nb anyd fl) (wire_write tr _)) as (b & Hrd & ->); [reflexivity|ranges|].
    unfold t_dispatch. rewrite (medium_present _ Hn). cbv [is N.eqb Pos.eqb Nat.eqb andb].
    rewrite (Hrd "lba" 2 7 64 lba), (Hrd "nb" 10 7 32 nb), (Hrd "ndob" 1 0 1 1) by (cbn; auto 10).
    cbv [N.eqb Pos.eqb]. now rewrite t_write_same_ok by (assumption || now rewrite zeros_length, N2Nat.id).
  - destruct Hv as (Hlba & Hnb & Hrange & ? & ?).
    destruct (stack_call_plain tr t [("lba", 2, 7, 32); ("numblks", 7, 7, 16)]
                (facade_sync10 _ lba n im g) (wire_read tr _ _)) as (b & Hrd & ->); [reflexivity|ranges|].
    unfold t_dispatch. rewrite (medium_present _ Hn). cbv [is N.eqb Pos.eqb Nat.eqb andb].
    rewrite (Hrd "lba" 2 7 32 lba), (Hrd "numblks" 7 7 16 n) by (cbn; auto 10).
    now rewrite t_sync_ok.
  - destruct Hv as (Hlba & Hnb & Hrange & ? & ?).
    destruct (stack_call_plain tr t [("lba", 2, 7, 64); ("numblks", 10, 7, 32)]
                (facade_sync16 _ lba n im g) (wire_read tr _ _)) as (b & Hrd & ->); [reflexivity|ranges|].
    unfold t_dispatch. rewrite (medium_present _ Hn). cbv [is N.eqb Pos.eqb Nat.eqb andb].
    rewrite (Hrd "lba" 2 7 64 lba), (Hrd "numblks" 10 7 32 n) by (cbn; auto 10).
    now rewrite t_sync_ok.
  - destruct (stack_call_plain tr t [] (facade_capacity10 _) (wire_read tr _ _)) as (b & _ & ->); [reflexivity|ranges|].
    unfold t_dispatch. rewrite (medium_present _ Hn). cbv [is N.eqb Pos.eqb Nat.eqb andb]. now rewrite fill_exact by apply readcap10_length.
  - destruct (stack_call_plain tr t [("service_action", 1, 4, 5); ("alloc_len", 10, 7, 32)]
                (facade_capacity16 _ al) (wire_read tr _ _)) as (b & Hrd & ->); [reflexivity|ranges|].
    unfold t_dispatch. rewrite (medium_present _ Hn). cbv [is N.eqb Pos.eqb Nat.eqb andb].
    rewrite (Hrd "service_action" 1 4 5 16), (Hrd "alloc_len" 10 7 32 al) by (cbn; auto 10).
    cbv [N.eqb Pos.eqb]. now rewrite fill_truncate.
  - destruct (stack_call_plain tr t [("evpd", 1, 0, 1); ("alloc_len", 3, 7, 16)]
                (facade_inquiry _ al) (wire_read tr _ _)) as (b & Hrd & ->); [reflexivity|ranges|].
    unfold t_dispatch. rewrite (medium_present _ Hn). cbv [is N.eqb Pos.eqb Nat.eqb andb].
    rewrite (Hrd "evpd" 1 0 1 0), (Hrd "alloc_len" 3 7 16 al) by (cbn; auto 10).
    cbv [N.eqb]. now rewrite fill_truncate.
Qed.

(* ---------- histories ---------- *)

Fixpoint meaning_run (t : target) (h : list req) : target * list (result bytes) :=
  match h with
  | [] => (t, [])
  | r :: h' => let '(t1, o) := meaning t r in let '(t2, os) := meaning_run t1 h' in (t2, o :: os)
  end.

Lemma meaning_run_cons t r h : fst (meaning_run t (r :: h)) = fst (meaning_run (fst (meaning t r)) h).
Proof. cbn [meaning_run meaning fst]. now destruct (meaning_run _ h). Qed.

Lemma meaning_geometry t r : t_bs (fst (meaning t r)) = t_bs t /\ t_nblk (fst (meaning t r)) = t_nblk t.
Proof. cbn [meaning fst]. now destruct (write_of (t_bs t) r). Qed.

Lemma meaning_ok t r : target_ok t -> valid_req (t_bs t) (t_nblk t) r -> target_ok (fst (meaning t r)).
Proof.
  intros (Hbs & Hn & Hlen) Hv. cbn [meaning fst].
  destruct (write_of (t_bs t) r) as [w|] eqn:Hw; [|repeat split; assumption].
  repeat split; try assumption. cbn [t_bs t_disk].
  intros a. destruct r; try discriminate; inversion Hw; subst w; cbn [apply_wr valid_req] in *.
  - destruct (covers lba tl a) eqn:Hc; [|apply Hlen].
    destruct Hv as (_ & _ & _ & Hd & _). apply andb_prop in Hc as [Ha Hb]. apply N.leb_le in Ha. apply N.ltb_lt in Hb.
    unfold block_of. rewrite slice_length by nia. lia.
  - destruct (covers lba nb a); [|apply Hlen]. destruct Hv as (_ & _ & _ & _ & Hd & _). lia.
  - destruct (covers lba nb a); [|apply Hlen]. destruct Hv as (_ & _ & _ & _ & Hd & _). lia.
  - destruct (covers lba nb a); [|apply Hlen]. apply zeros_length.
Qed.

(* the stack is transparent: every history, either transport *)
Theorem stack_run_meaning tr : forall h t,
  target_ok t -> Forall (valid_req (t_bs t) (t_nblk t)) h ->
  stack_run tr (t_bs t) t (map call_of h) = meaning_run t h.
Proof.
  induction h as [|r h IH]; intros t Hok Hv; [reflexivity|].
  inversion Hv as [|? ? Hr Hh]; subst.
  cbn [map stack_run meaning_run].
  pose proof (stack_call_meaning tr t r Hok Hr) as Hs.
  destruct (call_of r) as [[name args] kw]. rewrite Hs.
  pose proof (meaning_ok t r Hok Hr) as Hok1. destruct (meaning_geometry t r) as (Hbs1 & Hn1).
  destruct (meaning t r) as [t1 o]. cbn [fst] in *.
  rewrite <- Hbs1. rewrite IH; [reflexivity|assumption|]. now rewrite Hbs1, Hn1.
Qed.

Corollary transports_agree h t :
  target_ok t -> Forall (valid_req (t_bs t) (t_nblk t)) h ->
  stack_run SGIO (t_bs t) t (map call_of h) = stack_run ISCSI (t_bs t) t (map call_of h).
Proof. intros Hok Hv. now rewrite !stack_run_meaning. Qed.

(* ---------- the medium holds, for each block, the data last written to it ---------- *)

Fixpoint writes_of (bs : N) (h : list req) : list wr :=
  match h with
  | [] => []
  | r :: h' => match write_of bs r with Some w => w :: writes_of bs h' | None => writes_of bs h' end
  end.

Lemma latest_app bs init l1 l2 a : latest bs init (l1 ++ l2) a = latest bs (latest bs init l2) l1 a.
Proof. induction l1 as [|[lba n data|lba n blk] l1 IH]; cbn [app latest]; now rewrite ?IH. Qed.

(* after any history, block a holds what the most recent write covering it put there, else its initial contents *)
Theorem medium_is_latest h t a :
  t_disk (fst (meaning_run t h)) a = latest (t_bs t) (t_disk t) (rev (writes_of (t_bs t) h)) a.
Proof.
  revert t. induction h as [|r h IH]; intros t; [reflexivity|].
  rewrite meaning_run_cons, IH. cbn [meaning fst writes_of].
  destruct (write_of (t_bs t) r) as [w|]; [|reflexivity].
  cbn [t_bs t_disk rev]. rewrite latest_app. now destruct w.
Qed.

Lemma read_blocks_ext d1 d2 : (forall a, d1 a = d2 a) -> forall n lba, read_blocks d1 lba n = read_blocks d2 lba n.
Proof. intros H n. induction n as [|n IH]; intros lba; [reflexivity|]. cbn [read_blocks]. now rewrite H, IH. Qed.

(* a READ after any history returns, block by block, the data last written *)
Theorem read_returns_latest h t f lba tl fl :
  snd (meaning (fst (meaning_run t h)) (RRead f lba tl fl)) =
  Ok (read_blocks (latest (t_bs t) (t_disk t) (rev (writes_of (t_bs t) h))) lba (N.to_nat tl)).
Proof.
  unfold meaning. cbn [snd]. f_equal. apply read_blocks_ext. intros a. apply medium_is_latest.
Qed.

(* ---------- READ CAPACITY: the decoded geometry (through the regenerated data-in tables) ---------- *)

(* a mask that selects k whole bytes *)
Lemma decode1_whole data m k o :
  ctz m = Some 0 -> nbytes m = k -> m = N.ones (8 * N.of_nat k) -> bytes_ok data -> (N.to_nat o + k <= length data)%nat ->
  decode1 data (Mask m o) = Ok (VI (ba_to_int (slice data (N.to_nat o) (N.to_nat o + k)))).
Proof.
  intros Hz Hk Hm Hok Hlen. unfold decode1. rewrite Hz, Hk. cbv zeta.
  rewrite !N.shiftr_0_r, Hm, N.land_ones, N.mod_small; [reflexivity|].
  pose proof (ba_to_int_bound _ (bytes_ok_slice data (N.to_nat o) (N.to_nat o + k) Hok)) as B.
  rewrite slice_length in B by lia. replace (N.to_nat o + k - N.to_nat o)%nat with k in B by lia.
  now rewrite N.pow_mul_r.
Qed.

Lemma slice_app_l (a b : bytes) n : length a = n -> slice (a ++ b)%list 0 n = a.
Proof. intros H. apply (slice_mid [] a b 0 n); [reflexivity|now rewrite Nat.sub_0_r]. Qed.

Theorem capacity10_decodes t : t_bs t < 2 ^ 32 -> t_nblk t <= 2 ^ 32 ->
  decode_bits (readcap10_data t) T_scsi_cdb_readcapacity10__ReadCapacity10___datain_bits =
  Ok [("returned_lba", VI (t_nblk t - 1)); ("block_length", VI (t_bs t))].
Proof.
  intros Hbs Hn. unfold T_scsi_cdb_readcapacity10__ReadCapacity10___datain_bits. cbn [decode_bits].
  assert (Hok : bytes_ok (readcap10_data t)) by (unfold readcap10_data; apply bytes_ok_app; split; apply int_to_ba_ok).
  rewrite !(decode1_whole _ _ 4) by (reflexivity || assumption || (rewrite readcap10_length; cbn; lia)).
  unfold readcap10_data. change (N.to_nat 0) with 0%nat. change (N.to_nat 4) with 4%nat. cbn [Nat.add].
  rewrite slice_app_l by apply int_to_ba_length.
  rewrite <- (app_nil_r (int_to_ba (t_bs t) 4)) at 1.
  rewrite (slice_mid _ _ [] 4 8) by (rewrite ?int_to_ba_length; lia).
  rewrite !ba_to_int_to_ba. change (N.of_nat 4) with 4. change (256 ^ 4) with (2 ^ 32).
  rewrite N.min_l by lia. rewrite !N.mod_small by lia. reflexivity.
Qed.

Lemma readcap16_length t : length (readcap16_data t) = 32%nat.
Proof. unfold readcap16_data. now rewrite !app_length, !int_to_ba_length, zeros_length. Qed.

Theorem capacity16_decodes t : t_bs t < 2 ^ 32 -> t_nblk t <= 2 ^ 64 ->
  exists f1 f2,
    lookup "returned_lba" T_scsi_cdb_readcapacity16__ReadCapacity16___datain_bits = Some f1 /\
    lookup "block_length" T_scsi_cdb_readcapacity16__ReadCapacity16___datain_bits = Some f2 /\
    decode1 (readcap16_data t) f1 = Ok (VI (t_nblk t - 1)) /\ decode1 (readcap16_data t) f2 = Ok (VI (t_bs t)).
Proof.
  intros Hbs Hn. eexists. eexists. split; [vm_compute; reflexivity|]. split; [vm_compute; reflexivity|].
  assert (Hok : bytes_ok (readcap16_data t)).
  { unfold readcap16_data. apply bytes_ok_app. split; [apply int_to_ba_ok|]. apply bytes_ok_app. split; [apply int_to_ba_ok|apply bytes_ok_zeros]. }
  rewrite (decode1_whole _ _ 8), (decode1_whole _ _ 4) by (reflexivity || assumption || (rewrite readcap16_length; cbn; lia)).
  unfold readcap16_data. change (N.to_nat 0) with 0%nat. change (N.to_nat 8) with 8%nat. cbn [Nat.add].
  rewrite slice_app_l by apply int_to_ba_length.
  rewrite (slice_mid _ _ _ 8 12) by (rewrite ?int_to_ba_length; lia).
  rewrite !ba_to_int_to_ba. change (N.of_nat 8) with 8. change (N.of_nat 4) with 4.
  change (256 ^ 8) with (2 ^ 64). change (256 ^ 4) with (2 ^ 32).
  rewrite !N.mod_small by lia. split; reflexivity.
Qed.
