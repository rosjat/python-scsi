(* Proofs/PyTotal2.v — the REGENERATED decoders whose descriptors carry their own length (the loop stride is read from the buffer), on EVERY
   input: whatever the bytes say — a length of zero, a length that runs past the end, a truncated descriptor — the loop consumes at least the
   fixed part of a descriptor per iteration, returns within len + 3 units of fuel (2 len + 4 for the nested loops of REPORT TARGET PORT GROUPS)
   and never raises.  Each decoder has one lemma that runs it on
   every input, with its result spelled out from the successive remainders of the buffer; the every-input theorem (C11) bounds the fuel by the
   buffer, the theorem on conformant responses (C04) evaluates the remainders of a buffer made of conformant descriptors. *)
From Coq Require Import String ZArith.
From PS Require Import Base.Bytes Base.Result Model.Converter Model.Py Proofs.PyLemmas Proofs.PyParsers Proofs.PyTotal Proofs.Termination Gen.Tables Gen.PyFuncs.
Open Scope string_scope.
Open Scope nat_scope.

Definition rp_fields (rest : bytes) : list (string * pv) := dict_of_decoded (decode_total rest T_rpri).
Definition rp_adlen (rest : bytes) : Z := match lookup "adlen" (rp_fields rest) with Some (PInt z) => z | _ => 0%Z end.

Lemma rp_adlen_spec rest : lookup "adlen" (rp_fields rest) = Some (PInt (rp_adlen rest)) /\ (0 <= rp_adlen rest)%Z.
Proof.
  unfold rp_adlen, rp_fields, decode_total, T_rpri, T_scsi_cdb_report_priority__ReportPriority___data_bits. cbn.
  split; [reflexivity|apply N2Z.is_nonneg].
Qed.

Definition rp_stride (rest : bytes) : nat := Z.to_nat (rp_adlen rest + 8).
Lemma rp_stride_pos rest : 8 <= rp_stride rest.
Proof. unfold rp_stride. pose proof (rp_adlen_spec rest) as [_ H]. lia. Qed.

(* the successive remainders of the buffer, each starting at a descriptor *)
Fixpoint rp_suffixes (fuel : nat) (rest : bytes) : list bytes :=
  match fuel with
  | O => []
  | S f => match rest with [] => [] | _ => rest :: rp_suffixes f (skipn (rp_stride rest) rest) end
  end.

Definition rp_next (R : bytes) : bytes := skipn (rp_stride R) R.

Lemma rp_suffixes_suffixes fuel R : rp_suffixes fuel R = suffixes rp_next fuel R.
Proof. revert R. induction fuel as [|f IH]; intros R; [reflexivity|]. destruct R; [reflexivity|]. cbn [rp_suffixes suffixes]. now rewrite IH. Qed.

(* what the decoder makes of the descriptor at the head of a remainder: the three fields, and as TransportID whatever lies between byte 8
   and byte 8 + ADDITIONAL LENGTH (clipped to the buffer) *)
Definition rp_desc (rest : bytes) : pv :=
  PDict (rp_fields rest ++ [("transport_id", PBytes (py_slice rest (Some 8%Z) (Some (8 + rp_adlen rest)%Z)))])%list.

(* on every input, one unit of fuel per descriptor *)
Lemma reportpriority_run : forall (data : bytes) f,
  let announced := py_slice data (Some 4%Z) (Some (Z.of_N (ba_to_int (py_slice data None (Some 4%Z))) + 4)%Z) in
  length (rp_suffixes (length announced) announced) + 2 <= f ->
  call_fun all_tables py_program f RPRI [PBytes data] =
  Ok (PDict [("priority_descriptors", PList (map rp_desc (rp_suffixes (length announced) announced)))]).
Proof.
  intros data f announced Hf. rewrite rp_suffixes_suffixes in *.
  destruct f as [|[|f]]; try lia. eapply call_with_ret; [exact rpri_lookup|reflexivity|]. cbn [fn_body PF_rpri].
  step. step. cbn [lookup String.eqb Ascii.eqb Bool.eqb slice_eval opt_int as_int bin_eval]. fold announced.
  step.
  rewrite exec_block_cons, <- run_S.
  edestruct (consume_len all_tables py_program "_data" (while_body PF_rpri 3) rp_next 0
               (fun seen ρ => lookup "_descriptors" ρ = Some (PList (map rp_desc seen)) /\ lookup "result" ρ = Some (PDict [])))
    with (R := announced) (seen := @nil bytes) as (ρ' & -> & Hl & Hr).
  - intros R HR. apply skipn_shrinks; [exact HR|]. pose proof (rp_stride_pos R). lia.
  - intros f0 R seen ρ _ Hne Hd [Hl Hr]. destruct (rp_adlen_spec R) as [Had Hnn]. cbn [while_body fn_body nth PF_rpri].
    rewrite (exec_decode_fresh _ _ _ "_r" "_data" _ _ R _ _ rpri_table (proj1 rpri_wf) (proj1 (proj2 rpri_wf)) eq_refl Hd). fold (rp_fields R).
    step. rewrite Hd. cbn [index_eval]. rewrite Had. cbn [bin_eval as_int slice_eval opt_int].
    unfold with_var. lk. cbn [update_at set_item]. unfold rp_fields at 2. rewrite decoded_set_fresh by apply rpri_wf. fold (rp_fields R).
    step. unfold with_var. lk. rewrite Hl. cbn [update_at].
    step. rewrite Hd. cbn [index_eval]. rewrite (lookup_app_some _ _ _ _ Had). cbn [bin_eval as_int slice_eval opt_int].
    replace (rp_adlen R + 8)%Z with (Z.of_nat (rp_stride R)) by (unfold rp_stride; lia). rewrite py_slice_from.
    rewrite exec_block_nil. eexists. repeat split; lk; [reflexivity| |exact Hr].
    rewrite map_app. reflexivity.
  - lia.
  - lk. reflexivity.
  - split; lk; reflexivity.
  - step. unfold with_var. rewrite Hr, Hl. cbn [update_at dict_update fold_left dict_set fst snd].
    step. reflexivity.
Qed.

Theorem reportpriority_total : forall (data : bytes) f, length data + 3 <= f ->
  let announced := py_slice data (Some 4%Z) (Some (Z.of_N (ba_to_int (py_slice data None (Some 4%Z))) + 4)%Z) in
  call_fun all_tables py_program f RPRI [PBytes data] =
  Ok (PDict [("priority_descriptors", PList (map rp_desc (rp_suffixes (length announced) announced)))]).
Proof.
  intros data f Hf announced. apply reportpriority_run. rewrite rp_suffixes_suffixes. apply pieces_fuel. lia.
Qed.

(* a conformant descriptor at the head of a buffer: the loop makes of it what the standard says and goes on right behind it *)
Lemma rp_head_ok d r : pd_ok d -> pd_bytes d <> [] /\ rp_next (pd_bytes d ++ r)%list = r /\ rp_desc (pd_bytes d ++ r)%list = pd_dict d.
Proof.
  intros (Hf & Hlen). unfold pd_bytes. rewrite <- app_assoc.
  assert (Hfields : rp_fields (pd_fixed d ++ pd_tid d ++ r)%list = pd_fields d) by (unfold rp_fields, pd_fields; rewrite decode_total_prefix by (rewrite Hf; apply rpri_wf); reflexivity).
  assert (Had : rp_adlen (pd_fixed d ++ pd_tid d ++ r)%list = Z.of_nat (length (pd_tid d))) by (unfold rp_adlen; now rewrite Hfields, Hlen).
  split; [destruct (pd_fixed d); [discriminate|discriminate]|]. split.
  - unfold rp_next, rp_stride. rewrite Had, app_assoc. apply skipn_app_len. rewrite app_length, Hf. lia.
  - unfold rp_desc, pd_dict. rewrite Hfields, Had, py_slice_mid by (rewrite ?Hf; lia). reflexivity.
Qed.

(* REPORT PRIORITY: PRIORITY PARAMETER DATA LENGTH + n descriptors (8 bytes + a TransportID of ADDITIONAL LENGTH bytes) + anything *)
Theorem report_priority_exact : forall (len4 : bytes) (descs : list pdesc) (trail : bytes) f,
  length len4 = 4 -> Forall pd_ok descs ->
  Z.of_N (ba_to_int len4) = Z.of_nat (length (concat (map pd_bytes descs))) ->
  length descs + 2 <= f ->
  call_fun all_tables py_program f RPRI [PBytes (len4 ++ concat (map pd_bytes descs) ++ trail)%list] =
  Ok (PDict [("priority_descriptors", PList (map pd_dict descs))]).
Proof.
  intros len4 descs trail f Hl Hall Hlen Hf.
  pose proof (reportpriority_run (len4 ++ concat (map pd_bytes descs) ++ trail)%list f) as R. cbv zeta in R.
  rewrite py_slice_prefix, Hlen, (py_slice_mid len4 (concat (map pd_bytes descs)) trail) in R by (rewrite ?Hl; lia).
  pose proof (suffixes_concat _ _ _ _ _ _ _ rp_head_ok descs _ Hall (le_n _)) as E. rewrite <- rp_suffixes_suffixes in E.
  rewrite E in R. apply R. apply (f_equal (@length pv)) in E. rewrite !map_length in E. lia.
Qed.

Fixpoint port_suffixes (k : nat) (rest : bytes) : list bytes :=
  match k with
  | O => []
  | S k' => match rest with [] => [] | _ => rest :: port_suffixes k' (skipn 4 rest) end
  end.
Fixpoint port_rest (k : nat) (rest : bytes) : bytes :=
  match k with
  | O => rest
  | S k' => match rest with [] => [] | _ => port_rest k' (skipn 4 rest) end
  end.

Lemma port_suffixes_suffixes k R : port_suffixes k R = suffixes (skipn 4) k R.
Proof. revert R. induction k as [|k IH]; intros R; [reflexivity|]. destruct R; [reflexivity|]. cbn [port_suffixes suffixes]. now rewrite IH. Qed.
Lemma port_rest_leftover k R : port_rest k R = leftover (skipn 4) k R.
Proof. revert R. induction k as [|k IH]; intros R; [reflexivity|]. destruct R; [reflexivity|]. cbn [port_rest leftover]. now rewrite IH. Qed.

Lemma skipn4_shorter (R : bytes) : R <> [] -> length (skipn 4 R) < length R.
Proof. intros H. apply skipn_shrinks; [exact H|lia]. Qed.

Lemma port_suffixes_length k : forall rest, length (port_suffixes k rest) <= length rest.
Proof. intros rest. rewrite port_suffixes_suffixes. apply suffixes_length_buf, skipn4_shorter. Qed.

Definition tg_fields (R : bytes) : list (string * pv) := dict_of_decoded (decode_total R T_tpgd).
Definition tg_count (R : bytes) : Z := match lookup "target_port_count" (tg_fields R) with Some (PInt z) => z | _ => 0%Z end.
Lemma tg_count_spec R : lookup "target_port_count" (tg_fields R) = Some (PInt (tg_count R)) /\ (0 <= tg_count R)%Z.
Proof.
  unfold tg_count, tg_fields, decode_total, T_tpgd, T_scsi_cdb_report_target_port_groups__ReportTargetPortGroups___tpgd_bits. cbn.
  split; [reflexivity|apply N2Z.is_nonneg].
Qed.

Definition port_desc (p : bytes) : pv := PDict [("relative_target_port_id", PInt (Z.of_N (ba_to_int (py_slice p (Some 2%Z) (Some 4%Z)))))].
Definition tg_ports (R : bytes) : list bytes := port_suffixes (Z.to_nat (tg_count R)) (skipn 8 R).
Definition tg_next (R : bytes) : bytes := port_rest (Z.to_nat (tg_count R)) (skipn 8 R).
Definition tg_desc (R : bytes) : pv := PDict (tg_fields R ++ [("target_ports", PList (map port_desc (tg_ports R)))])%list.

Lemma tg_next_shorter R : R <> [] -> length (tg_next R) < length R.
Proof.
  intros H. unfold tg_next. rewrite port_rest_leftover.
  pose proof (leftover_length (skipn 4) skipn4_shorter (Z.to_nat (tg_count R)) (skipn 8 R)).
  pose proof (skipn_shrinks 8 R H ltac:(lia)). lia.
Qed.

Fixpoint tg_suffixes (fuel : nat) (R : bytes) : list bytes :=
  match fuel with
  | O => []
  | S f => match R with [] => [] | _ => R :: tg_suffixes f (tg_next R) end
  end.

Lemma tg_suffixes_suffixes fuel R : tg_suffixes fuel R = suffixes tg_next fuel R.
Proof. revert R. induction fuel as [|f IH]; intros R; [reflexivity|]. destruct R; [reflexivity|]. cbn [tg_suffixes suffixes]. now rewrite IH. Qed.

Lemma tg_suffixes_length fuel l : length (tg_suffixes fuel l) <= fuel.
Proof. rewrite tg_suffixes_suffixes. apply suffixes_length. Qed.

(* The inner loop, on the remainder G that starts at a group header: `while len(_data) and len(_tp_descriptors) < count` stops at the end of
   the buffer or after TARGET PORT COUNT port descriptors, whichever comes first; the bound that is left is the count less the ports read. *)
Lemma rtpg_ports_run G acc res f ρ : length (tg_ports G) <= f ->
  lookup "_data" ρ = Some (PBytes (skipn 8 G)) -> lookup "_tp_descriptors" ρ = Some (PList []) ->
  lookup "_tpgd" ρ = Some (PDict (tg_fields G)) -> lookup "_tpg_descriptors" ρ = Some acc -> lookup "result" ρ = Some res ->
  exists ρ', run all_tables py_program (S f) (SWhile rtpg_inner_cond rtpg_inner_body) ρ = ONorm ρ' /\
    lookup "_data" ρ' = Some (PBytes (tg_next G)) /\ lookup "_tp_descriptors" ρ' = Some (PList (map port_desc (tg_ports G))) /\
    lookup "_tpgd" ρ' = Some (PDict (tg_fields G)) /\ lookup "_tpg_descriptors" ρ' = Some acc /\ lookup "result" ρ' = Some res.
Proof.
  intros Hf Hd Htp Hg Hacc Hres. destruct (tg_count_spec G) as [Hc Hnn].
  unfold tg_ports, tg_next in *. rewrite port_suffixes_suffixes in *. rewrite port_rest_leftover.
  destruct (consume all_tables py_program rtpg_inner_cond rtpg_inner_body (skipn 4) 0
              (fun k R seen ρ => length seen + k = Z.to_nat (tg_count G) /\
                 lookup "_data" ρ = Some (PBytes R) /\ lookup "_tp_descriptors" ρ = Some (PList (map port_desc seen)) /\
                 lookup "_tpgd" ρ = Some (PDict (tg_fields G)) /\ lookup "_tpg_descriptors" ρ = Some acc /\ lookup "result" ρ = Some res))
    with (k := Z.to_nat (tg_count G)) (R := skipn 8 G) (seen := @nil bytes) (f := f) (ρ := ρ) as (ρ' & E & _ & H);
    [| |exact Hf|repeat split; assumption|exists ρ'; split; [exact E|exact H]].
  - intros call k R seen ρ0 (Hk & Hd0 & Htp0 & Hg0 & _).
    cbn [rtpg_inner_cond rtpg_inner_loop while_body fn_body nth PF_rtpg eval]. rewrite Hd0. cbn [len_eval truthy].
    destruct R as [|a R]; [eexists; split; [reflexivity|now destruct k]|]. cbn [length].
    destruct (Z.eqb_spec (Z.of_nat (S (length R))) 0) as [E|_]; [lia|]. cbn [negb].
    rewrite Htp0, Hg0. cbn [len_eval index_eval]. rewrite Hc. cbn [cmp_eval as_int]. eexists. split; [reflexivity|]. cbn [truthy].
    rewrite map_length. destruct (Z.ltb_spec (Z.of_nat (length seen)) (tg_count G)); destruct k; try reflexivity; lia.
  - intros f0 k R seen ρ0 _ _ (Hk & Hd0 & Htp0 & Hg0 & Hacc0 & Hres0).
    cbn [rtpg_inner_body rtpg_inner_loop while_body fn_body nth PF_rtpg].
    step. step. rewrite Hd0. cbn [slice_eval opt_int as_int].
    unfold with_var. lk. cbn [update_at set_item dict_set].
    step. unfold with_var. lk. rewrite Htp0. cbn [update_at].
    step. rewrite Hd0. cbn [slice_eval opt_int as_int]. rewrite (py_slice_from R 4 : py_slice R (Some 4%Z) None = skipn 4 R).
    rewrite exec_block_nil. eexists. split; [reflexivity|]. repeat split; lk; try assumption.
    + rewrite app_length. cbn [length]. lia.
    + reflexivity.
    + rewrite map_app. reflexivity.
Qed.

(* from `_tpg_descriptors = []` to the end of the function, whatever the remaining bytes are.  An iteration of the outer loop needs fuel
   for its inner loop: at most the length of the remainder, which is at most that of `body` *)
Lemma rtpg_groups_run body r f ρ :
  2 * length body + 1 <= f ->
  lookup "_data" ρ = Some (PBytes body) -> lookup "result" ρ = Some (PDict r) ->
  exec_block all_tables (call_with py_program (run all_tables py_program f)) (run all_tables py_program f) (skipn 3 (fn_body PF_rtpg)) ρ =
  ORet (PDict (dict_update r [("target_port_group_descriptors", PList (map tg_desc (tg_suffixes (length body) body)))])).
Proof.
  intros Hf Hdata Hres. rewrite tg_suffixes_suffixes. cbn [skipn fn_body PF_rtpg].
  step. rewrite exec_block_cons. destruct f as [|f]; [lia|]. rewrite <- run_S.
  edestruct (consume_len all_tables py_program "_data" rtpg_outer_body tg_next (length body)
               (fun seen ρ => (forall R, lookup "_data" ρ = Some (PBytes R) -> length R <= length body) /\
                              lookup "_tpg_descriptors" ρ = Some (PList (map tg_desc seen)) /\ lookup "result" ρ = Some (PDict r)))
    with (R := body) (seen := @nil bytes) as (ρ' & -> & _ & Hacc' & Hres').
  - exact tg_next_shorter.
  - intros f0 R seen ρ0 Hm Hne Hd (Hb & Hacc & Hres0). specialize (Hb R Hd). cbn [while_body fn_body nth PF_rtpg].
    rewrite (exec_decode_fresh _ _ _ "_tpgd" "_data" _ _ R _ _ (proj1 rtpg_tables) (proj1 rtpg_wf) (proj1 (proj2 rtpg_wf)) eq_refl Hd). fold (tg_fields R).
    step. rewrite Hd. cbn [slice_eval opt_int as_int]. rewrite (py_slice_from R 8 : py_slice R (Some 8%Z) None = skipn 8 R).
    step.
    rewrite exec_block_cons, <- run_S.
    match goal with |- context [run _ _ (S f0) _ ?ρ1] =>
      destruct (rtpg_ports_run R (PList (map tg_desc seen)) (PDict r) f0 ρ1) as (ρ2 & E & Hd1 & Htp1 & Hg1 & Hacc1 & Hres1) end;
      [|lk; reflexivity|lk; reflexivity|lk; reflexivity|lk; exact Hacc|lk; exact Hres0|].
    { pose proof (port_suffixes_length (Z.to_nat (tg_count R)) (skipn 8 R)) as Hp. rewrite skipn_length in Hp. unfold tg_ports. lia. }
    cbn [rtpg_inner_cond rtpg_inner_body rtpg_inner_loop while_body fn_body nth PF_rtpg] in E. rewrite E. clear E.
    step. unfold with_var. rewrite Htp1, Hg1. cbn [update_at set_item]. unfold tg_fields at 1. rewrite decoded_set_fresh by apply rtpg_wf. fold (tg_fields R).
    step. unfold with_var. lk. rewrite Hacc1. cbn [update_at].
    rewrite exec_block_nil. eexists. split; [reflexivity|]. repeat split; lk; [exact Hd1| | |exact Hres1].
    + intros R' HR'. rewrite Hd1 in HR'. injection HR' as <-. pose proof (tg_next_shorter R Hne). lia.
    + rewrite map_app. reflexivity.
  - pose proof (suffixes_length tg_next (length body) body). lia.
  - lk. exact Hdata.
  - repeat split; lk; [|reflexivity|exact Hres]. intros R HR. rewrite Hdata in HR. injection HR as <-. reflexivity.
  - step. unfold with_var. rewrite Hacc', Hres'. cbn [update_at].
    step. reflexivity.
Qed.

Definition ext_fields (A : bytes) : list (string * pv) := dict_of_decoded (decode_total A T_ext).
Definition ext_ft (A : bytes) : Z := match lookup "format_type" (ext_fields A) with Some (PInt z) => z | _ => 0%Z end.
Definition ext_itt (A : bytes) : Z := match lookup "implicit_transition_time" (ext_fields A) with Some (PInt z) => z | _ => 0%Z end.
Lemma ext_spec A : lookup "format_type" (ext_fields A) = Some (PInt (ext_ft A)) /\
                   lookup "implicit_transition_time" (ext_fields A) = Some (PInt (ext_itt A)).
Proof.
  unfold ext_ft, ext_itt, ext_fields, decode_total, T_ext, T_scsi_cdb_report_target_port_groups__ReportTargetPortGroups___ext_hdr_bits. cbn.
  split; reflexivity.
Qed.

(* what the header part of the decoder does with the announced bytes: the header fields it reports, and where the descriptors start *)
Definition rtpg_header (A : bytes) : list (string * pv) * bytes :=
  if (4 <=? Z.of_nat (length A))%Z then
    if (ext_ft A =? 1)%Z then ([("format_type", PInt 1); ("implicit_transition_time", PInt (ext_itt A))], skipn 4 A)
    else ([("format_type", PInt (ext_ft A))], A)
  else ([("format_type", PInt 0)], A).

(* the statements before `_tpg_descriptors = []`, on every input: the header fields go to `result`, the bytes behind the header to `_data` *)
Lemma rtpg_header_run call again (data : bytes) :
  let announced := py_slice data (Some 4%Z) (Some (Z.of_N (ba_to_int (py_slice data None (Some 4%Z))) + 4)%Z) in
  exists ρ, exec_block all_tables call again (firstn 3 (fn_body PF_rtpg)) [("data", PBytes data)] = ONorm ρ /\
    lookup "_data" ρ = Some (PBytes (snd (rtpg_header announced))) /\ lookup "result" ρ = Some (PDict (fst (rtpg_header announced))).
Proof.
  intros announced. cbn [firstn fn_body PF_rtpg].
  step. step. cbn [lookup String.eqb Ascii.eqb Bool.eqb slice_eval opt_int as_int bin_eval]. fold announced.
  rewrite exec_block_one, exec_if. cbn [eval]. lk. cbn [len_eval cmp_eval as_int].
  unfold rtpg_header.
  destruct (Z.leb_spec 4 (Z.of_nat (length announced))) as [H4|H4]; cbn [truthy].
  - destruct (ext_spec announced) as [Hft Hitt].
    rewrite (exec_decode_fresh _ _ _ "_r" "_data" _ _ announced _ _ (proj2 rtpg_tables) (proj1 ext_wf) (proj1 (proj2 ext_wf)) eq_refl) by (lk; reflexivity).
    fold (ext_fields announced).
    step. cbn [index_eval]. rewrite Hft. unfold with_var. lk. cbn [update_at set_item dict_set].
    rewrite exec_block_one, exec_if. cbn [eval]. lk. cbn [index_eval]. rewrite Hft. cbn [cmp_eval py_eq as_int].
    destruct (Z.eqb_spec (ext_ft announced) 1) as [E|E]; cbn [truthy fst snd].
    + step. cbn [index_eval]. rewrite Hitt. unfold with_var. lk. cbn [update_at set_item dict_set String.eqb Ascii.eqb Bool.eqb].
      step. cbn [lookup String.eqb Ascii.eqb Bool.eqb slice_eval opt_int as_int]. rewrite (py_slice_from announced 4 : py_slice announced (Some 4%Z) None = skipn 4 announced).
      rewrite exec_block_nil, E. eexists. repeat split; lk; reflexivity.
    + rewrite exec_block_nil. eexists. repeat split; lk; reflexivity.
  - cbn [fst snd]. step. unfold with_var. lk. cbn [update_at set_item dict_set]. rewrite exec_block_nil. eexists. repeat split; lk; reflexivity.
Qed.

Lemma rtpg_header_fresh A : lookup "target_port_group_descriptors" (fst (rtpg_header A)) = None.
Proof. unfold rtpg_header. destruct (4 <=? _)%Z; [destruct (_ =? 1)%Z|]; reflexivity. Qed.

(* on every input, fuel in terms of the part of the buffer that holds the descriptors *)
Lemma rtpg_run : forall (data : bytes) f,
  let announced := py_slice data (Some 4%Z) (Some (Z.of_N (ba_to_int (py_slice data None (Some 4%Z))) + 4)%Z) in
  let body := snd (rtpg_header announced) in
  2 * length body + 4 <= f ->
  call_fun all_tables py_program f RTPG [PBytes data] =
  Ok (PDict (fst (rtpg_header announced) ++ [("target_port_group_descriptors", PList (map tg_desc (tg_suffixes (length body) body)))])%list).
Proof.
  intros data f announced body Hf. destruct f as [|f]; [lia|].
  eapply call_with_ret; [exact rtpg_lookup|reflexivity|].
  rewrite <- (firstn_skipn 3 (fn_body PF_rtpg)), exec_block_app.
  edestruct rtpg_header_run as (ρ & -> & Hd & Hr).
  rewrite (rtpg_groups_run body _ f ρ ltac:(lia) Hd Hr).
  unfold dict_update. cbn [fold_left fst snd]. now rewrite dict_set_fresh by apply rtpg_header_fresh.
Qed.

Lemma rtpg_header_length A : length (snd (rtpg_header A)) <= length A.
Proof. unfold rtpg_header. destruct (4 <=? _)%Z; [destruct (_ =? 1)%Z|]; cbn [snd]; rewrite ?skipn_length; lia. Qed.

Theorem rtpg_total : forall (data : bytes) f, 2 * length data + 4 <= f ->
  let announced := py_slice data (Some 4%Z) (Some (Z.of_N (ba_to_int (py_slice data None (Some 4%Z))) + 4)%Z) in
  let body := snd (rtpg_header announced) in
  call_fun all_tables py_program f RTPG [PBytes data] =
  Ok (PDict (fst (rtpg_header announced) ++ [("target_port_group_descriptors", PList (map tg_desc (tg_suffixes (length body) body)))])%list).
Proof.
  intros data f Hf announced body. apply rtpg_run. fold announced. fold body.
  pose proof (rtpg_header_length announced). fold body in H.
  pose proof (py_slice_length_le data (Some 4%Z) (Some (Z.of_N (ba_to_int (py_slice data None (Some 4%Z))) + 4)%Z)). fold announced in H0. lia.
Qed.

(* a conformant port descriptor, then a conformant group, at the head of a buffer *)
Lemma port_head_ok (p r : bytes) : length p = 4 -> p <> [] /\ skipn 4 (p ++ r)%list = r /\ port_desc (p ++ r)%list = port_dict p.
Proof.
  intros Hp. split; [destruct p; [discriminate|discriminate]|]. split; [now apply skipn_app_len|].
  unfold port_desc, port_dict. rewrite (py_slice_tail_of_prefix p r 2 4) by (rewrite ?Hp; lia). reflexivity.
Qed.

Lemma tg_head_ok g r : tpg_ok g -> tpg_bytes g <> [] /\ tg_next (tpg_bytes g ++ r)%list = r /\ tg_desc (tpg_bytes g ++ r)%list = tpg_dict g.
Proof.
  intros (Hh & Hports & Hcount). unfold tpg_bytes. rewrite <- app_assoc.
  assert (Hfields : tg_fields (g_hdr g ++ concat (g_ports g) ++ r)%list = tpg_fields g)
    by (unfold tg_fields, tpg_fields; rewrite decode_total_prefix by (rewrite Hh; apply rtpg_wf); reflexivity).
  assert (Hc : Z.to_nat (tg_count (g_hdr g ++ concat (g_ports g) ++ r)%list) = length (g_ports g)) by (unfold tg_count; rewrite Hfields, Hcount; apply Nat2Z.id).
  destruct (suffixes_conformant _ _ _ (fun p => p) _ _ _ port_head_ok (g_ports g) r Hports _ (le_n _)) as [Eports Erest].
  rewrite map_id, Nat.sub_diag in Eports, Erest. cbn [suffixes leftover map] in Eports, Erest. rewrite app_nil_r in Eports.
  split; [destruct (g_hdr g); [discriminate|discriminate]|]. split.
  - unfold tg_next. rewrite Hc, (skipn_app_len _ _ 8 Hh), port_rest_leftover. exact Erest.
  - unfold tg_desc, tg_ports, tpg_dict. rewrite Hfields, Hc, (skipn_app_len _ _ 8 Hh), port_suffixes_suffixes, Eports. reflexivity.
Qed.

Lemma tg_conformant groups : Forall tpg_ok groups ->
  let body := concat (map tpg_bytes groups) in map tg_desc (tg_suffixes (length body) body) = map tpg_dict groups.
Proof. intros H body. unfold body. rewrite tg_suffixes_suffixes. exact (suffixes_concat _ _ _ _ _ _ _ tg_head_ok groups _ H (le_n _)). Qed.

(* REPORT TARGET PORT GROUPS, length-only header format: RETURN DATA LENGTH + n target port group descriptors, each with its
   own number of target port descriptors, + anything.  For every n, every port count and every content: exactly those
   groups, each with exactly its ports, whole and in order. *)
Theorem rtpg_exact_length_only : forall (len4 : bytes) (groups : list tpg) (trail : bytes) f,
  length len4 = 4 -> Forall tpg_ok groups ->
  Z.of_N (ba_to_int len4) = Z.of_nat (length (concat (map tpg_bytes groups))) ->
  (forall g gs, groups = g :: gs -> lookup "format_type" (dict_of_decoded (decode_total (g_hdr g) T_ext)) = Some (PInt 0)) ->
  2 * length (concat (map tpg_bytes groups)) + 4 <= f ->
  call_fun all_tables py_program f RTPG [PBytes (len4 ++ concat (map tpg_bytes groups) ++ trail)%list] =
  Ok (PDict [("format_type", PInt 0); ("target_port_group_descriptors", PList (map tpg_dict groups))]).
Proof.
  intros len4 groups trail f Hl Hall Hlen Hfmt Hf.
  pose proof (rtpg_run (len4 ++ concat (map tpg_bytes groups) ++ trail)%list f) as R. cbv zeta in R.
  rewrite py_slice_prefix, Hlen, (py_slice_mid len4 (concat (map tpg_bytes groups)) trail) in R by (rewrite ?Hl; lia).
  (* the header part reports format type 0 and leaves the buffer as it is: no group, so fewer than 4 bytes, or the first group's header read as an extended header *)
  assert (Hh : rtpg_header (concat (map tpg_bytes groups)) = ([("format_type", PInt 0)], concat (map tpg_bytes groups))).
  { unfold rtpg_header. destruct groups as [|g gs]; [reflexivity|]. inversion Hall as [|? ? (Hg & _) _]; subst.
    assert (E : ext_ft (concat (map tpg_bytes (g :: gs))) = 0%Z).
    { unfold ext_ft, ext_fields. cbn [map]. rewrite concat_cons. unfold tpg_bytes at 1. rewrite <- !app_assoc.
      rewrite decode_total_prefix by (rewrite Hg; apply rtpg_wf). now rewrite (Hfmt g gs eq_refl). }
    rewrite E. destruct (4 <=? _)%Z; reflexivity. }
  rewrite Hh in R. cbn [fst snd] in R. rewrite (tg_conformant groups Hall) in R. exact (R Hf).
Qed.

(* the extended header format: RETURN DATA LENGTH, then a 4-byte extended header (FORMAT TYPE 1, IMPLICIT TRANSITION TIME),
   then the descriptors *)
Theorem rtpg_exact_extended_header : forall (len4 ext : bytes) (groups : list tpg) (trail : bytes) (itt : pv) f,
  length len4 = 4 -> length ext = 4 -> Forall tpg_ok groups ->
  Z.of_N (ba_to_int len4) = Z.of_nat (4 + length (concat (map tpg_bytes groups))) ->
  lookup "format_type" (dict_of_decoded (decode_total ext T_ext)) = Some (PInt 1) ->
  lookup "implicit_transition_time" (dict_of_decoded (decode_total ext T_ext)) = Some itt ->
  2 * length (concat (map tpg_bytes groups)) + 4 <= f ->
  call_fun all_tables py_program f RTPG [PBytes (len4 ++ (ext ++ concat (map tpg_bytes groups)) ++ trail)%list] =
  Ok (PDict [("format_type", PInt 1); ("implicit_transition_time", itt);
             ("target_port_group_descriptors", PList (map tpg_dict groups))]).
Proof.
  intros len4 ext groups trail itt f Hl He Hall Hlen Hfmt Hitt Hf.
  pose proof (rtpg_run (len4 ++ (ext ++ concat (map tpg_bytes groups)) ++ trail)%list f) as R. cbv zeta in R.
  rewrite py_slice_prefix, Hlen, (py_slice_mid len4 (ext ++ concat (map tpg_bytes groups)) trail) in R by (rewrite ?app_length, ?Hl, ?He; lia).
  assert (Hh : rtpg_header (ext ++ concat (map tpg_bytes groups))%list = ([("format_type", PInt 1); ("implicit_transition_time", itt)], concat (map tpg_bytes groups))).
  { destruct (ext_spec (ext ++ concat (map tpg_bytes groups))%list) as [Hft Hi]. unfold ext_fields in Hft, Hi.
    rewrite decode_total_prefix in Hft, Hi by (rewrite He; apply rtpg_wf). rewrite Hfmt in Hft. rewrite Hitt in Hi. injection Hft as Hft. injection Hi as Hi.
    unfold rtpg_header. rewrite <- Hft, <- Hi, (skipn_app_len _ _ 4 He). rewrite app_length, He.
    destruct (Z.leb_spec 4 (Z.of_nat (4 + length (concat (map tpg_bytes groups))))); [reflexivity|lia]. }
  rewrite Hh in R. cbn [fst snd] in R. rewrite (tg_conformant groups Hall) in R. exact (R Hf).
Qed.
