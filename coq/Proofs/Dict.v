(* Proofs/Dict.v — python dictionaries as insertion-ordered association lists (Model/Converter.v: lookup, dict_set):
   the few facts every proof about an environment, a table or a dictionary of values uses. *)
From Coq Require Import String.
From PS Require Import Base.Bytes Model.Converter.
Local Open Scope string_scope.

Lemma lookup_set_same {A} (d : list (string * A)) k v : lookup k (dict_set d k v) = Some v.
Proof.
  induction d as [|[k' v'] d IH]; cbn; [now rewrite String.eqb_refl|].
  destruct (String.eqb_spec k k') as [->|Hn]; cbn; [now rewrite String.eqb_refl|].
  destruct (String.eqb_spec k k'); [contradiction|exact IH].
Qed.

Lemma lookup_set_other {A} (d : list (string * A)) k k' v : k <> k' -> lookup k (dict_set d k' v) = lookup k d.
Proof.
  intros Hn. induction d as [|[k2 v2] d IH]; cbn.
  - destruct (String.eqb_spec k k'); [contradiction|reflexivity].
  - destruct (String.eqb_spec k' k2) as [->|Hn2]; cbn.
    + destruct (String.eqb_spec k k2); [contradiction|reflexivity].
    + destruct (String.eqb_spec k k2); [reflexivity|exact IH].
Qed.

Lemma lookup_dict_set {A} (d : list (string * A)) k k' v : lookup k (dict_set d k' v) = if String.eqb k k' then Some v else lookup k d.
Proof. destruct (String.eqb_spec k k') as [->|Hn]; [apply lookup_set_same|now apply lookup_set_other]. Qed.

Lemma lookup_In {A} k (l : list (string * A)) v : lookup k l = Some v -> In (k, v) l.
Proof.
  induction l as [|[k' v'] l IH]; cbn; [discriminate|].
  destruct (String.eqb_spec k k') as [->|Hn]; [intros [= ->]; now left|right; auto].
Qed.

Lemma lookup_not_in {A} (l : list (string * A)) k : existsb (String.eqb k) (map fst l) = false -> lookup k l = None.
Proof. induction l as [|[k' v'] l IH]; cbn; [reflexivity|]. intros H. apply orb_false_iff in H. destruct H as [-> H]. auto. Qed.

Lemma lookup_app_none {A} (l r : list (string * A)) k : lookup k l = None -> lookup k (l ++ r)%list = lookup k r.
Proof. induction l as [|[k' v'] l IH]; cbn; [reflexivity|]. destruct (String.eqb k k'); [discriminate|exact IH]. Qed.

Lemma lookup_app_some {A} (l r : list (string * A)) k v : lookup k l = Some v -> lookup k (l ++ r)%list = Some v.
Proof. induction l as [|[k' v'] l IH]; cbn; [discriminate|]. destruct (String.eqb k k'); [trivial|exact IH]. Qed.

(* storing under a new key appends: python dictionaries keep insertion order *)
Lemma dict_set_fresh {A} (l : list (string * A)) k v : lookup k l = None -> dict_set l k v = (l ++ [(k, v)])%list.
Proof. induction l as [|[k' v'] l IH]; cbn; [reflexivity|]. destruct (String.eqb_spec k k'); [discriminate|]. intros H. now rewrite IH. Qed.

Lemma lookup_nodup {A} (l : list (string * A)) k w : NoDup (map fst l) -> In (k, w) l -> lookup k l = Some w.
Proof.
  induction l as [|[k1 w1] l IH]; [contradiction|]. cbn [map fst lookup]. intros Hnd [E|Hin].
  - inversion E; subst. now rewrite String.eqb_refl.
  - inversion Hnd as [|? ? Hni Hnd']; subst. destruct (String.eqb_spec k k1) as [->|]; [|auto].
    exfalso. apply Hni. change k1 with (fst (k1, w)). now apply in_map.
Qed.

Lemma lookup_in_keys {A} (L : list (string * A)) k : In k (map fst L) -> exists f, lookup k L = Some f.
Proof.
  induction L as [|[k' f'] L IH]; [intros []|]. cbn [map fst lookup]. intros [->|H].
  - rewrite String.eqb_refl. eauto.
  - destruct (String.eqb k k'); eauto.
Qed.

Lemma NoDup_app_intro {A} (a b : list A) : NoDup a -> NoDup b -> (forall x, In x a -> ~ In x b) -> NoDup (a ++ b).
Proof.
  intros Ha Hb Hd. induction Ha as [|x a Hx Ha IH]; [exact Hb|]. cbn [app]. constructor.
  - intros Hin. apply in_app_or in Hin as [Hin|Hin]; [contradiction|]. exact (Hd x (or_introl eq_refl) Hin).
  - apply IH. intros y Hy. apply Hd. now right.
Qed.
