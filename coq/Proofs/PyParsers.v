(* Proofs/PyParsers.v — the REGENERATED decoder bodies (Gen/PyFuncs.v) under the semantics of Model/Py.v on conformant responses:
   a response made of a header, any number of descriptors and any trailing bytes, whose length field has the value the
   standard prescribes, is decoded into exactly those descriptors, whole and in order.  Here: what a conformant descriptor is for
   each decoder, and the theorems for READ FULL STATUS and the TransportID decoder it calls.  The theorems for GET LBA STATUS and
   READ KEYS are in PyTotal.v, those for REPORT PRIORITY and REPORT TARGET PORT GROUPS in PyTotal2.v: each follows from the lemma
   that runs the decoder on every input. *)
From Coq Require Import String ZArith.
From PS Require Import Base.Bytes Base.Result Model.Converter Model.Py Proofs.PyLemmas Gen.Tables Gen.PyFuncs.
Open Scope string_scope.
Open Scope nat_scope.

Definition while_body (f : fundef) (n : nat) : list st :=
  match nth n (fn_body f) SPass with SWhile _ body => body | _ => [] end.

Definition GLS := "scsi_cdb_getlbastatus.GetLBAStatus.unmarshall_datain".
Definition T_gls := T_scsi_cdb_getlbastatus__GetLBAStatus___datain_bits.
Definition gls_desc (d : bytes) : pv := PDict (dict_of_decoded (decode_total d T_gls)).

Lemma gls_lookup : lookup GLS py_program = Some PF_scsi_cdb_getlbastatus_GetLBAStatus_unmarshall_datain.
Proof. vm_compute. reflexivity. Qed.
Lemma gls_table : lookup "scsi_cdb_getlbastatus.GetLBAStatus._datain_bits" all_tables = Some T_gls.
Proof. vm_compute. reflexivity. Qed.
Lemma gls_wf : masks_nonzero T_gls = true /\ names_distinct (map fst T_gls) = true.
Proof. vm_compute. split; reflexivity. Qed.

Definition PRK := "scsi_cdb_persistentreservein.PersistentReserveInReadKeys.unmarshall_datain".
Notation PF_prk := PF_scsi_cdb_persistentreservein_PersistentReserveInReadKeys_unmarshall_datain.
Definition prk_key (d : bytes) : pv := PInt (Z.of_N (ba_to_int d)).

Lemma prk_lookup : lookup PRK py_program = Some PF_prk.
Proof. vm_compute. reflexivity. Qed.

Definition RTPG := "scsi_cdb_report_target_port_groups.ReportTargetPortGroups.unmarshall_datain".
Notation PF_rtpg := PF_scsi_cdb_report_target_port_groups_ReportTargetPortGroups_unmarshall_datain.
Definition T_tpgd := T_scsi_cdb_report_target_port_groups__ReportTargetPortGroups___tpgd_bits.
Definition T_ext := T_scsi_cdb_report_target_port_groups__ReportTargetPortGroups___ext_hdr_bits.

Record tpg := mkTpg { g_hdr : bytes; g_ports : list bytes }.
Definition tpg_fields (g : tpg) : list (string * pv) := dict_of_decoded (decode_total (g_hdr g) T_tpgd).
(* a conformant target port group descriptor: 8 header bytes, 4 bytes per target port, TARGET PORT COUNT = number of ports *)
Definition tpg_ok (g : tpg) : Prop :=
  length (g_hdr g) = 8 /\ Forall (fun p => length p = 4) (g_ports g) /\
  lookup "target_port_count" (tpg_fields g) = Some (PInt (Z.of_nat (length (g_ports g)))).
Definition tpg_bytes (g : tpg) : bytes := (g_hdr g ++ concat (g_ports g))%list.
Definition port_dict (p : bytes) : pv := PDict [("relative_target_port_id", PInt (Z.of_N (ba_to_int (skipn 2 p))))].
Definition tpg_dict (g : tpg) : pv := PDict (tpg_fields g ++ [("target_ports", PList (map port_dict (g_ports g)))])%list.

Lemma rtpg_lookup : lookup RTPG py_program = Some PF_rtpg.
Proof. vm_compute. reflexivity. Qed.
Lemma rtpg_tables :
  lookup "scsi_cdb_report_target_port_groups.ReportTargetPortGroups._tpgd_bits" all_tables = Some T_tpgd /\
  lookup "scsi_cdb_report_target_port_groups.ReportTargetPortGroups._ext_hdr_bits" all_tables = Some T_ext.
Proof. vm_compute. split; reflexivity. Qed.
Lemma rtpg_wf : masks_nonzero T_tpgd = true /\ names_distinct (map fst T_tpgd) = true /\ fields_within 8 T_tpgd = true /\
                existsb (String.eqb "target_ports") (map fst T_tpgd) = false /\
                masks_nonzero T_ext = true /\ names_distinct (map fst T_ext) = true /\ fields_within 4 T_ext = true.
Proof. vm_compute. repeat split; reflexivity. Qed.

Definition ext_wf := proj2 (proj2 (proj2 (proj2 rtpg_wf))).

Notation rtpg_outer_body := (while_body PF_rtpg 4).
Definition rtpg_inner_loop : st := nth 4 rtpg_outer_body SPass.
Definition rtpg_inner_cond : ex := match rtpg_inner_loop with SWhile c _ => c | _ => EConst PNone end.
Definition rtpg_inner_body : list st := match rtpg_inner_loop with SWhile _ b => b | _ => [] end.

Definition RPRI := "scsi_cdb_report_priority.ReportPriority.unmarshall_datain".
Notation PF_rpri := PF_scsi_cdb_report_priority_ReportPriority_unmarshall_datain.
Definition T_rpri := T_scsi_cdb_report_priority__ReportPriority___data_bits.

Record pdesc := mkPd { pd_fixed : bytes; pd_tid : bytes }.
Definition pd_fields (d : pdesc) : list (string * pv) := dict_of_decoded (decode_total (pd_fixed d) T_rpri).
(* a conformant priority descriptor: 8 fixed bytes, then a TransportID whose length is the ADDITIONAL LENGTH field *)
Definition pd_ok (d : pdesc) : Prop :=
  length (pd_fixed d) = 8 /\ lookup "adlen" (pd_fields d) = Some (PInt (Z.of_nat (length (pd_tid d)))).
Definition pd_bytes (d : pdesc) : bytes := (pd_fixed d ++ pd_tid d)%list.
Definition pd_dict (d : pdesc) : pv := PDict (pd_fields d ++ [("transport_id", PBytes (pd_tid d))])%list.

Lemma rpri_lookup : lookup RPRI py_program = Some PF_rpri.
Proof. vm_compute. reflexivity. Qed.
Lemma rpri_table : lookup "scsi_cdb_report_priority.ReportPriority._data_bits" all_tables = Some T_rpri.
Proof. vm_compute. reflexivity. Qed.
Lemma rpri_wf : masks_nonzero T_rpri = true /\ names_distinct (map fst T_rpri) = true /\ fields_within 8 T_rpri = true /\
                existsb (String.eqb "transport_id") (map fst T_rpri) = false.
Proof. vm_compute. repeat split; reflexivity. Qed.

Definition RFS := "scsi_cdb_persistentreservein.PersistentReserveInReadFullStatus.unmarshall_datain".
Definition UTID := "scsi_cdb_persistentreservein.PersistentReserveInReadFullStatus.unmarshall_transport_id".
Notation PF_rfs := PF_scsi_cdb_persistentreservein_PersistentReserveInReadFullStatus_unmarshall_datain.
Definition T_rfs := T_scsi_cdb_persistentreservein__PersistentReserveInReadFullStatus___full_status_desc_bits.

(* what the TransportID decoder makes of a TransportID at the head of a buffer (whatever follows it, whatever fuel) *)
Definition tid_decodes (tid : bytes) (v : pv) : Prop :=
  forall rest f, 1 <= f -> call_with py_program (run all_tables py_program f) UTID [PBytes (tid ++ rest)%list] = Ok v.

Record fsdesc := mkFs { fs_fixed : bytes; fs_tid : bytes; fs_tidv : pv }.
Definition fs_fields (d : fsdesc) : list (string * pv) := dict_of_decoded (decode_total (fs_fixed d) T_rfs).
(* a conformant full status descriptor: 24 fixed bytes, ADDITIONAL DESCRIPTOR LENGTH = length of the TransportID (> 0) *)
Definition fs_ok (d : fsdesc) : Prop :=
  length (fs_fixed d) = 24 /\ 0 < length (fs_tid d) /\
  lookup "additional_desc_length" (fs_fields d) = Some (PInt (Z.of_nat (length (fs_tid d)))) /\
  tid_decodes (fs_tid d) (fs_tidv d).
Definition fs_bytes (d : fsdesc) : bytes := (fs_fixed d ++ fs_tid d)%list.
Definition fs_dict (d : fsdesc) : pv :=
  PDict (dict_remove (fs_fields d) "additional_desc_length" ++ [("transport_id", fs_tidv d)])%list.

Lemma rfs_lookup : lookup RFS py_program = Some PF_rfs.
Proof. vm_compute. reflexivity. Qed.
Lemma rfs_table : lookup "scsi_cdb_persistentreservein.PersistentReserveInReadFullStatus._full_status_desc_bits" all_tables = Some T_rfs.
Proof. vm_compute. reflexivity. Qed.
Lemma rfs_wf : masks_nonzero T_rfs = true /\ names_distinct (map fst T_rfs) = true /\ fields_within 24 T_rfs = true /\
               existsb (String.eqb "transport_id") (map fst T_rfs) = false.
Proof. vm_compute. repeat split; reflexivity. Qed.
Lemma fs_bytes_length d : fs_ok d -> 24 < length (fs_bytes d).
Proof. intros (Hfx & Hpos & _). unfold fs_bytes. rewrite app_length. lia. Qed.

(* one pass of the loop on a remainder that starts with a conformant descriptor: the descriptor is taken off `data` and what it stands for
   is appended to result["full_status"] (the body appends only if ADDITIONAL DESCRIPTOR LENGTH > 0) *)
Lemma rfs_pass f d (rest : bytes) (gen : pv) (acc : list pv) ρ : 1 <= f -> fs_ok d ->
  lookup "data" ρ = Some (PBytes (fs_bytes d ++ rest)%list) ->
  lookup "result" ρ = Some (PDict [("pr_generation", gen); ("full_status", PList acc)]) ->
  exists ρ', exec_block all_tables (call_with py_program (run all_tables py_program f)) (run all_tables py_program f) (while_body PF_rfs 6) ρ = ONorm ρ' /\
    lookup "data" ρ' = Some (PBytes rest) /\
    lookup "result" ρ' = Some (PDict [("pr_generation", gen); ("full_status", PList (acc ++ [fs_dict d]))]).
Proof.
  intros Hf (Hfx & Hpos & Hlen & Htid) Hd Hres. unfold fs_bytes in Hd. rewrite <- app_assoc in Hd.
  cbn [while_body fn_body nth PF_rfs].
  rewrite (exec_decode_fresh _ _ _ "_status_desc" "data" _ _ _ _ _ rfs_table (proj1 rfs_wf) (proj1 (proj2 rfs_wf)) eq_refl Hd).
  rewrite decode_total_prefix by (rewrite Hfx; apply rfs_wf). fold (fs_fields d).
  step. rewrite Hd. cbn [slice_eval opt_int as_int]. rewrite py_slice_suffix by (rewrite Hfx; reflexivity).
  step. cbn [index_eval]. rewrite Hlen.
  step. unfold with_var. lk. rewrite Hlen.
  rewrite exec_block_cons, exec_if. cbn [eval]. lk. cbn [cmp_eval as_int].
  assert (Hgt : (0 <? Z.of_nat (length (fs_tid d)))%Z = true) by (apply Z.ltb_lt; lia). rewrite Hgt. cbn [truthy].
  step. rewrite (Htid _ f Hf). unfold with_var. lk. cbn [update_at set_item].
  rewrite (dict_set_fresh (dict_remove (fs_fields d) "additional_desc_length"))
    by (apply lookup_not_in, remove_names_subset; unfold fs_fields; rewrite decoded_names by apply rfs_wf; apply rfs_wf).
  step. cbn [slice_eval opt_int as_int]. rewrite py_slice_suffix by reflexivity.
  step. unfold with_var. lk. rewrite Hres.
  cbn [update_at index_eval lookup String.eqb Ascii.eqb Bool.eqb set_item dict_set].
  rewrite !exec_block_nil. eexists. repeat split; lk; reflexivity.
Qed.

(* the loop on a buffer of conformant descriptors: one pass each, and one unit of fuel for the calls of the TransportID decoder *)
Lemma rfs_loop gen : forall descs acc f ρ, Forall fs_ok descs -> length descs + 1 <= f ->
  lookup "data" ρ = Some (PBytes (concat (map fs_bytes descs))) ->
  lookup "result" ρ = Some (PDict [("pr_generation", gen); ("full_status", PList acc)]) ->
  exists ρ', run all_tables py_program (S f) (SWhile (ELen (EVar "data")) (while_body PF_rfs 6)) ρ = ONorm ρ' /\
    lookup "result" ρ' = Some (PDict [("pr_generation", gen); ("full_status", PList (acc ++ map fs_dict descs))]).
Proof.
  induction descs as [|d ds IH]; intros acc f ρ Hall Hf Hd Hres; rewrite run_S, exec_while; cbn [eval]; rewrite Hd; cbn [len_eval truthy].
  - rewrite app_nil_r. exists ρ. split; [reflexivity|exact Hres].
  - inversion Hall as [|? ? Hok Hall']; subst. cbn [map] in *. rewrite concat_cons in *.
    pose proof (fs_bytes_length d Hok). rewrite app_length. destruct (Z.eqb_spec (Z.of_nat (length (fs_bytes d) + length (concat (map fs_bytes ds)))) 0); [lia|]. cbn [negb].
    destruct f as [|f]; [lia|].
    destruct (rfs_pass (S f) d _ gen acc ρ ltac:(lia) Hok Hd Hres) as (ρ1 & -> & Hd1 & Hres1).
    destruct (IH _ f ρ1 Hall' ltac:(cbn [length] in Hf; lia) Hd1 Hres1) as (ρ' & -> & Hres'). rewrite <- app_assoc in Hres'. eauto.
Qed.

(* READ FULL STATUS: PRGENERATION, ADDITIONAL LENGTH, n full status descriptors (24 bytes + TransportID), anything *)
Theorem prin_read_full_status_exact : forall (hdr : bytes) (descs : list fsdesc) (trail : bytes) f,
  length hdr = 8 -> Forall fs_ok descs ->
  Z.of_N (ba_to_int (skipn 4 hdr)) = Z.of_nat (length (concat (map fs_bytes descs))) ->
  length descs + 3 <= f ->
  call_fun all_tables py_program f RFS [PBytes (hdr ++ concat (map fs_bytes descs) ++ trail)%list] =
  Ok (PDict [("pr_generation", PInt (Z.of_N (ba_to_int (firstn 4 hdr)))); ("full_status", PList (map fs_dict descs))]).
Proof.
  intros hdr descs trail f Hh Hall Hlen Hf.
  destruct f as [|f]; [lia|]. eapply call_with_ret; [exact rfs_lookup|reflexivity|]. cbn [fn_body PF_rfs].
  cstep. cstep. cstep. cstep.
  rewrite py_slice_firstn by (rewrite Hh; lia). change (Z.to_nat 4) with 4.
  rewrite (py_slice_tail_of_prefix hdr _ 4 8) by (rewrite ?Hh; lia || reflexivity). change (Z.to_nat 4) with 4.
  rewrite exec_block_cons, exec_if. cbn [eval lookup String.eqb Ascii.eqb Bool.eqb cmp_eval py_eq as_int]. rewrite Hlen.
  destruct (Z.eqb_spec (Z.of_nat (length (concat (map fs_bytes descs)))) 0) as [E0|_]; cbn [truthy].
  - (* nothing announced: no descriptor, since each has at least its 24 fixed bytes *)
    destruct Hall as [|d ds Hok _]; [|pose proof (fs_bytes_length d Hok); cbn [map] in E0; rewrite concat_cons, app_length in E0; lia].
    cstep. reflexivity.
  - rewrite exec_block_nil. cstep.
    rewrite (py_slice_mid hdr (concat (map fs_bytes descs)) trail) by (rewrite ?Hh; lia || reflexivity).
    rewrite exec_block_cons, <- run_S.
    edestruct rfs_loop with (descs := descs) (acc := @nil pv) as (ρ' & -> & Hres); [exact Hall|lia|reflexivity|reflexivity|].
    step. rewrite Hres. reflexivity.
Qed.

(* the TransportID decoder on the 24-byte TransportIDs, whatever follows them in the buffer: one statement over (protocol identifier,
   key, offset, length), tid_decodes_kind.  Instances here: Fibre Channel (protocol 0h: N_PORT NAME at bytes 8-15) and SAS (6h: SAS
   ADDRESS at 4-11); SBP (3h: EUI-64 NAME at 8-15), SRP (4h: INITIATOR PORT IDENTIFIER at 8-23) and SOP (Ah: ROUTING ID at 4-11)
   are taken from it in PyRoundTrip5.v *)
Notation PF_utid := PF_scsi_cdb_persistentreservein_PersistentReserveInReadFullStatus_unmarshall_transport_id.
Definition T_tid := T_scsi_cdb_persistentreservein__PersistentReserveInReadFullStatus___transport_id_bits.
Definition tid_fields (tid : bytes) : list (string * pv) := dict_of_decoded (decode_total tid T_tid).
Lemma utid_lookup : lookup UTID py_program = Some PF_utid.
Proof. vm_compute. reflexivity. Qed.
Lemma utid_table : lookup "scsi_cdb_persistentreservein.PersistentReserveInReadFullStatus._transport_id_bits" all_tables = Some T_tid.
Proof. vm_compute. reflexivity. Qed.
Lemma utid_wf : masks_nonzero T_tid = true /\ names_distinct (map fst T_tid) = true /\ fields_within 24 T_tid = true.
Proof. vm_compute. repeat split; reflexivity. Qed.
Lemma tid_fields_names t : map fst (tid_fields t) = map fst T_tid.
Proof. apply decoded_names, utid_wf. Qed.

(* the decoder is: decode the table fields of the buffer's head into _r; read the protocol identifier; the cascade on it; return _r *)
Definition utid_chain : st := nth 3 (fn_body PF_utid) SPass.
Lemma utid_body : fn_body PF_utid = (firstn 3 (fn_body PF_utid) ++ [utid_chain; SReturn (EVar "_r")])%list.
Proof. reflexivity. Qed.

Lemma utid_prologue call again (tid rest : bytes) (p : pv) (tl : list st) :
  fields_within (length tid) T_tid = true -> lookup "protocol_id" (tid_fields tid) = Some p ->
  exec_block all_tables call again (firstn 3 (fn_body PF_utid) ++ tl) [("data", PBytes (tid ++ rest)%list)] =
  exec_block all_tables call again tl [("data", PBytes (tid ++ rest)%list); ("_r", PDict (tid_fields tid)); ("_protocol_id", p)].
Proof.
  intros Hw Hp. cbn [firstn fn_body PF_utid app].
  cstep. cstep. rewrite utid_table. rewrite decode_bits_total by apply utid_wf. rewrite decode_total_prefix by exact Hw.
  fold (tid_fields tid). rewrite dict_update_nil by (rewrite tid_fields_names; apply utid_wf).
  cstep. rewrite Hp. reflexivity.
Qed.

(* a protocol identifier p whose branch of the cascade is `_r[key] = data[a:a+n]` *)
Lemma tid_decodes_kind (p : Z) (key : string) (a n : nat) (tid : bytes) :
  chain_branch "_protocol_id" p utid_chain =
    [SStore "_r" [] (EConst (PStr key)) (ESlice (EVar "data") (Some (EConst (PInt (Z.of_nat a)))) (Some (EConst (PInt (Z.of_nat (a + n))))))] ->
  existsb (String.eqb key) (map fst T_tid) = false -> a + n <= 24 ->
  length tid = 24 -> lookup "protocol_id" (tid_fields tid) = Some (PInt p) ->
  tid_decodes tid (PDict (tid_fields tid ++ [(key, PBytes (firstn n (skipn a tid)))])%list).
Proof.
  intros Hsel Hk Han Hl Hp rest f Hf. destruct f as [|f]; [lia|].
  eapply call_with_ret; [exact utid_lookup|reflexivity|].
  rewrite utid_body, (utid_prologue _ _ tid rest (PInt p)) by (rewrite ?Hl; apply utid_wf || exact Hp).
  rewrite (exec_chain all_tables _ _ "_protocol_id" p) by reflexivity. rewrite Hsel. cbn [app].
  cstep. rewrite (dict_set_fresh (tid_fields tid)) by (apply lookup_not_in; rewrite tid_fields_names; exact Hk).
  rewrite (py_slice_field tid rest _ _ a n) by lia.
  cstep. reflexivity.
Qed.

Lemma tid_decodes_fc (tid : bytes) : length tid = 24 -> lookup "protocol_id" (tid_fields tid) = Some (PInt 0) ->
  tid_decodes tid (PDict (tid_fields tid ++ [("n_port_name", PBytes (firstn 8 (skipn 8 tid)))])%list).
Proof. exact (tid_decodes_kind 0 "n_port_name" 8 8 tid eq_refl eq_refl ltac:(lia)). Qed.

Lemma tid_decodes_sas (tid : bytes) : length tid = 24 -> lookup "protocol_id" (tid_fields tid) = Some (PInt 6) ->
  tid_decodes tid (PDict (tid_fields tid ++ [("sas_address", PBytes (firstn 8 (skipn 4 tid)))])%list).
Proof. exact (tid_decodes_kind 6 "sas_address" 4 8 tid eq_refl eq_refl ltac:(lia)). Qed.
