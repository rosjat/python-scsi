(* Base/Bytes.v — bytes as lists of N, big-endian integer view, bit lemmas.
   Stdlib only.  Every lemma here is closed under the global context. *)
From Coq Require Export NArith Arith List Lia Bool.
Export ListNotations.
Open Scope N_scope.
#[global] Arguments N.mul : simpl never.
#[global] Arguments N.add : simpl never.
#[global] Arguments N.sub : simpl never.
#[global] Arguments N.pow : simpl never.
#[global] Arguments N.div : simpl never.
#[global] Arguments N.modulo : simpl never.
#[global] Arguments N.shiftl : simpl never.
#[global] Arguments N.shiftr : simpl never.
#[global] Arguments N.land : simpl never.
#[global] Arguments N.lxor : simpl never.
#[global] Arguments N.testbit : simpl never.
#[global] Arguments N.leb : simpl never.
#[global] Arguments N.ltb : simpl never.
#[global] Arguments N.eqb : simpl never.

Definition byte := N.
Definition bytes := list N.

Definition bytes_ok (l : bytes) : Prop := Forall (fun b => b < 256) l.
Definition bytes_okb (l : bytes) : bool := forallb (fun b => b <? 256) l.

Lemma bytes_okb_spec l : bytes_okb l = true <-> bytes_ok l.
Proof.
  unfold bytes_okb, bytes_ok. rewrite forallb_forall, Forall_forall.
  split; intros H x Hx; specialize (H x Hx); [now apply N.ltb_lt in H| now apply N.ltb_lt].
Qed.

(* python: sum(ba[i] << ((len(ba)-1-i)*8) for i in range(len(ba))) *)
Fixpoint ba_to_int (l : bytes) : N :=
  match l with [] => 0 | b :: r => b * 256 ^ (N.of_nat (length r)) + ba_to_int r end.

(* python: bytearray((v >> i*8) & 0xFF for i in reversed(range(n))) *)
Fixpoint int_to_ba (v : N) (n : nat) : bytes :=
  match n with
  | O => []
  | S k => (N.shiftr v (8 * N.of_nat k)) mod 256 :: int_to_ba v k
  end.

Definition zeros (n : nat) : bytes := repeat 0 n.

(* python clamping slice  data[a:b]  for 0 <= a, 0 <= b *)
Definition slice (l : bytes) (a b : nat) : bytes := firstn (b - a) (skipn a l).

Lemma skipn_skipn' {A} (m n : nat) (l : list A) : skipn m (skipn n l) = skipn (n + m) l.
Proof.
  revert l; induction n as [|n IH]; intros l; [reflexivity|].
  destruct l; [now rewrite !skipn_nil|]. cbn [skipn plus]. apply IH.
Qed.

(* 0 .. n-1, the domain of a check made by evaluation *)
Definition below (n : nat) : list N := map N.of_nat (seq 0 n).

Lemma below_In n v : v < N.of_nat n -> In v (below n).
Proof.
  intros H. unfold below. apply in_map_iff. exists (N.to_nat v). split; [lia|].
  apply in_seq. lia.
Qed.

Lemma bytes_ok_app a b : bytes_ok (a ++ b) <-> bytes_ok a /\ bytes_ok b.
Proof. apply Forall_app. Qed.

Lemma bytes_ok_firstn n l : bytes_ok l -> bytes_ok (firstn n l).
Proof. intros H. rewrite <- (firstn_skipn n l) in H. apply bytes_ok_app in H. tauto. Qed.

Lemma bytes_ok_skipn n l : bytes_ok l -> bytes_ok (skipn n l).
Proof. intros H. rewrite <- (firstn_skipn n l) in H. apply bytes_ok_app in H. tauto. Qed.

Lemma bytes_ok_slice l a b : bytes_ok l -> bytes_ok (slice l a b).
Proof. intros H. unfold slice. now apply bytes_ok_firstn, bytes_ok_skipn. Qed.

Lemma bytes_ok_zeros n : bytes_ok (zeros n).
Proof. unfold zeros, bytes_ok. apply Forall_forall. intros x Hx. apply repeat_spec in Hx. subst. lia. Qed.

Lemma zeros_length n : length (zeros n) = n.
Proof. apply repeat_length. Qed.

Lemma slice_length l a b : (b <= length l)%nat -> length (slice l a b) = (b - a)%nat.
Proof. intros H. unfold slice. rewrite firstn_length, skipn_length. lia. Qed.

(* ---------- integer view ---------- *)

Lemma ba_to_int_app a b :
  ba_to_int (a ++ b) = ba_to_int a * 256 ^ N.of_nat (length b) + ba_to_int b.
Proof.
  induction a as [|x a IH]; cbn [ba_to_int app]; [lia|].
  rewrite IH, app_length, Nat2N.inj_add, N.pow_add_r. lia.
Qed.

Lemma ba_to_int_bound l : bytes_ok l -> ba_to_int l < 256 ^ N.of_nat (length l).
Proof.
  induction 1 as [|x l Hx Hl IH]; cbn [ba_to_int length]; [cbn; lia|].
  rewrite Nat2N.inj_succ, N.pow_succ_r'. nia.
Qed.

Lemma ba_to_int_zeros n : ba_to_int (zeros n) = 0.
Proof. induction n as [|n IH]; cbn [zeros repeat ba_to_int]; [reflexivity|]. fold (zeros n). rewrite IH. lia. Qed.

Lemma pow256 k : 256 ^ k = 2 ^ (8 * k).
Proof. now rewrite N.pow_mul_r. Qed.

Lemma testbit_concat a b k n : b < 2^k ->
  N.testbit (a * 2^k + b) n = if n <? k then N.testbit b n else N.testbit a (n - k).
Proof.
  intros Hb. destruct (N.ltb_spec n k) as [Hn|Hn].
  - rewrite <- (N.mod_pow2_bits_low (a * 2^k + b) k n Hn).
    rewrite N.add_comm, N.mod_add by (apply N.pow_nonzero; lia).
    now rewrite N.mod_small.
  - replace n with ((n - k) + k) at 1 by lia.
    rewrite <- N.div_pow2_bits.
    rewrite N.div_add_l by (apply N.pow_nonzero; lia).
    now rewrite N.div_small, N.add_0_r.
Qed.

Lemma lt_pow2_bits x k : (forall n, k <= n -> N.testbit x n = false) -> x < 2^k.
Proof.
  intros H. destruct (N.eq_dec x 0) as [->|Hx]; [apply N.neq_0_lt_0, N.pow_nonzero; lia|].
  destruct (N.lt_ge_cases x (2^k)) as [|Hge]; [assumption|exfalso].
  apply N.log2_le_pow2 in Hge; [|lia].
  specialize (H _ Hge). rewrite N.bit_log2 in H by assumption. discriminate.
Qed.

Lemma bits_above x k n : x < 2^k -> k <= n -> N.testbit x n = false.
Proof.
  intros Hx Hn. destruct (N.eq_dec x 0) as [->|Hne]; [apply N.bits_0|].
  apply N.bits_above_log2. apply N.log2_lt_pow2 in Hx; lia.
Qed.

Lemma lxor_lt b d k : b < 2^k -> d < 2^k -> N.lxor b d < 2^k.
Proof.
  intros Hb Hd. apply lt_pow2_bits. intros n Hn.
  now rewrite N.lxor_spec, (bits_above b k n), (bits_above d k n).
Qed.

Lemma lxor_split a b c d k : b < 2^k -> d < 2^k ->
  N.lxor (a * 2^k + b) (c * 2^k + d) = N.lxor a c * 2^k + N.lxor b d.
Proof.
  intros Hb Hd. pose proof (lxor_lt b d k Hb Hd) as Hx.
  apply N.bits_inj; intro n.
  rewrite N.lxor_spec, !testbit_concat by assumption.
  destruct (n <? k); now rewrite N.lxor_spec.
Qed.

(* ---------- int_to_ba ---------- *)

Lemma int_to_ba_length v n : length (int_to_ba v n) = n.
Proof. induction n as [|n IH]; cbn [int_to_ba length]; congruence. Qed.

Lemma int_to_ba_ok v n : bytes_ok (int_to_ba v n).
Proof.
  induction n as [|n IH]; cbn [int_to_ba]; constructor; [|exact IH].
  apply N.mod_lt. lia.
Qed.

Lemma ba_to_int_to_ba v n : ba_to_int (int_to_ba v n) = v mod 256 ^ N.of_nat n.
Proof.
  induction n as [|n IH]; cbn [int_to_ba ba_to_int].
  - cbn. now rewrite N.mod_1_r.
  - rewrite int_to_ba_length, IH, Nat2N.inj_succ, N.pow_succ_r'.
    rewrite N.shiftr_div_pow2, <- pow256.
    set (P := 256 ^ N.of_nat n).
    assert (HP : P <> 0) by (apply N.pow_nonzero; lia).
    rewrite (N.mul_comm 256 P), N.mod_mul_r by lia. lia.
Qed.

Lemma int_to_ba_low a b n k : (k <= n)%nat ->
  int_to_ba (a * 256 ^ N.of_nat n + b) k = int_to_ba b k.
Proof.
  induction k as [|k IH]; intros Hk; cbn [int_to_ba]; [reflexivity|].
  f_equal; [|apply IH; lia].
  rewrite !N.shiftr_div_pow2, <- !pow256.
  replace (N.of_nat n) with (N.of_nat (n - k - 1) + 1 + N.of_nat k) by lia.
  rewrite !N.pow_add_r, N.pow_1_r.
  set (P := 256 ^ N.of_nat k). set (Q := 256 ^ N.of_nat (n - k - 1)).
  assert (HP : P <> 0) by (apply N.pow_nonzero; lia).
  replace (a * (Q * 256 * P) + b) with ((a * Q * 256) * P + b) by lia.
  rewrite N.div_add_l by assumption.
  rewrite N.add_comm, N.mod_add by lia. reflexivity.
Qed.

Lemma int_to_ba_to_int l : bytes_ok l -> int_to_ba (ba_to_int l) (length l) = l.
Proof.
  induction 1 as [|x l Hx Hl IH]; [reflexivity|].
  cbn [length int_to_ba]. f_equal.
  - cbn [ba_to_int]. rewrite N.shiftr_div_pow2, <- pow256.
    pose proof (ba_to_int_bound l Hl) as B.
    rewrite N.div_add_l by (apply N.pow_nonzero; lia).
    rewrite N.div_small by assumption. rewrite N.add_0_r. now apply N.mod_small.
  - cbn [ba_to_int]. rewrite int_to_ba_low by lia. exact IH.
Qed.

Lemma int_to_ba_nth v n i : (i < n)%nat ->
  nth i (int_to_ba v n) 0 = (v / 256 ^ N.of_nat (n - 1 - i)) mod 256.
Proof.
  revert i; induction n as [|n IH]; intros i Hi; [lia|].
  cbn [int_to_ba]. destruct i as [|i]; cbn [nth].
  - rewrite N.shiftr_div_pow2, <- pow256. do 3 f_equal. lia.
  - rewrite IH by lia. do 3 f_equal. lia.
Qed.
